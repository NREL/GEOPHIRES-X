(* Model/UTokenizer.v - executable model of GeoPHIRESUtils.read_input_file (C12) over texts of Unicode code points
   (ustring = list N; the file's bytes are turned into such a text by Model/Utf8.v, decoding errors included):
   text-mode decoding of line endings, readlines, str.strip with the FULL str.isspace() table, comment prefixes,
   str.split(','), the ParameterEntry fields, and Python's dict (insertion ordered, assignment to an existing key replaces
   the value in place).  Plus the client's "append the override parameters after the base file".
   [String] / [EmptyString] below are cons / nil on code points.  No proofs here. *)
From Coq Require Import NArith List Bool Arith.
From Verif Require Import Base.UStr.
Import ListNotations.
Open Scope N_scope.

Notation string := ustring (only parsing).
Notation String := cons (only parsing).
Notation EmptyString := nil (only parsing).
Notation ascii := N (only parsing).

Definition LF : N := 10.
Definition CR : N := 13.
Definition COMMA : N := 44.
Definition HASH : N := 35.
Definition STAR : N := 42.
Definition DASH : N := 45.
Definition SPACE : N := 32.

(* str.isspace(): EVERY code point Python's strip() removes (the table is compared with the running interpreter's on each check):
   U+0009-000D, 001C-0020, 0085, 00A0, 1680, 2000-200A, 2028, 2029, 202F, 205F, 3000 *)
Definition is_ws (c : N) : bool :=
  ((9 <=? c) && (c <=? 13)) || ((28 <=? c) && (c <=? 32)) || (c =? 133) || (c =? 160) || (c =? 5760)
  || ((8192 <=? c) && (c <=? 8202)) || (c =? 8232) || (c =? 8233) || (c =? 8239) || (c =? 8287) || (c =? 12288).

Definition is_empty (s : string) : bool := match s with EmptyString => true | _ => false end.

Fixpoint lstrip (s : string) : string :=
  match s with
  | String c r => if is_ws c then lstrip r else s
  | EmptyString => EmptyString
  end.

Fixpoint rstrip (s : string) : string :=
  match s with
  | EmptyString => EmptyString
  | String c r => let r' := rstrip r in
                  if is_ws c && is_empty r' then EmptyString else String c r'
  end.

Definition strip (s : string) : string := rstrip (lstrip s).

(* str.split(sep): never returns the empty list *)
Fixpoint split_on (sep : ascii) (s : string) : list string :=
  match s with
  | EmptyString => [EmptyString]
  | String c r =>
      if UA.eqb c sep then EmptyString :: split_on sep r
      else match split_on sep r with
           | h :: t => String c h :: t
           | [] => [[c]]
           end
  end.

(* ''.join(list) *)
Fixpoint cat (ls : list string) : string :=
  match ls with [] => EmptyString | x :: r => x ++ cat r end.

(* any(line.startswith(x) for x in ['#', '--', '*']) *)
Definition is_comment (line : string) : bool :=
  match line with
  | c :: r => UA.eqb c HASH || UA.eqb c STAR
              || (UA.eqb c DASH && match r with c2 :: _ => UA.eqb c2 DASH | [] => false end)
  | [] => false
  end.

(* ParameterEntry(Name, sValue, Comment, raw_entry) *)
Record entry := { e_name : string; e_sval : string; e_comment : string; e_raw : string }.

Definition comment_of (rest : list string) : string :=
  match rest with
  | [] => EmptyString
  | [c] => strip c
  | _ => cat rest
  end.

Definition fields (line : string) : option entry :=
  match split_on COMMA line with
  | d :: v :: rest => Some {| e_name := strip d; e_sval := strip v; e_comment := comment_of rest; e_raw := line |}
  | _ => None
  end.

Definition parse_line (raw : string) : option entry :=
  let line := strip raw in
  if is_comment line then None else fields line.

Definition parse_lines (ls : list string) : list entry :=
  flat_map (fun l => match parse_line l with Some e => [e] | None => [] end) ls.

(* Python dict *)
Definition dict := list (string * entry).

Fixpoint dict_set (k : string) (e : entry) (d : dict) : dict :=
  match d with
  | [] => [(k, e)]
  | (k', e') :: r => if US.eqb k k' then (k', e) :: r else (k', e') :: dict_set k e r
  end.

Fixpoint dict_get (k : string) (d : dict) : option entry :=
  match d with
  | [] => None
  | (k', e) :: r => if US.eqb k k' then Some e else dict_get k r
  end.

Definition keys (d : dict) : list string := map fst d.

Definition build_from (d : dict) (es : list entry) : dict :=
  fold_left (fun d e => dict_set (e_name e) e d) es d.

Definition read_lines (ls : list string) : dict := build_from [] (parse_lines ls).

(* open(..., encoding='UTF-8') in text mode translates \r\n and lone \r to \n
   ([after_cr] is the decoder's pending-CR flag) *)
Fixpoint univ (after_cr : bool) (s : string) : string :=
  match s with
  | EmptyString => EmptyString
  | String c r =>
      if UA.eqb c LF then (if after_cr then univ false r else String LF (univ false r))
      else if UA.eqb c CR then String LF (univ true r)
      else String c (univ false r)
  end.
Definition universal (s : string) : string := univ false s.

(* file.readlines(): split after every \n, terminators kept, no empty last line *)
Fixpoint readlines (s : string) : list string :=
  match s with
  | EmptyString => []
  | String c r =>
      if UA.eqb c LF then [LF] :: readlines r
      else match readlines r with
           | h :: t => String c h :: t
           | [] => [[c]]
           end
  end.

Definition read_text (text : string) : dict := read_lines (readlines (universal text)).

(* the observable content of a dictionary: (key, Name, sValue, Comment, raw_entry) in iteration order *)
Definition dump (d : dict) : list (string * (string * (string * (string * string)))) :=
  map (fun p => (fst p, (e_name (snd p), (e_sval (snd p), (e_comment (snd p), e_raw (snd p)))))) d.

(* geophires_x_client.GeophiresInputParameters(params, from_file_path) BEFORE fix e85b257 (kept as the named pinned
   behaviour): f.writelines(base_file.readlines()) in text mode (so the base arrives with its line endings translated),
   followed by one line "name, value\n" per override - glued to the base's last line when that one is unterminated *)
Definition param_line (p : string * string) : string := fst p ++ [COMMA; SPACE] ++ snd p ++ [LF].
Definition client_text_pinned (base : string) (params : list (string * string)) : string :=
  universal base ++ cat (map param_line params).

(* empty, or ends with a line feed *)
Fixpoint complete (s : string) : bool :=
  match s with
  | EmptyString => true
  | String c r => if is_empty r then UA.eqb c LF else complete r
  end.
(* a text whose last line is terminated (by LF, CRLF or CR), or the empty text *)
Definition terminated (text : string) : bool := complete (universal text).

(* -- vocabulary of the statements -- *)
Fixpoint allws (s : string) : bool :=
  match s with EmptyString => true | String c r => is_ws c && allws r end.
Fixpoint nochar (x : ascii) (s : string) : bool :=
  match s with EmptyString => true | String c r => negb (UA.eqb c x) && nochar x r end.
Definition nocomma := nochar COMMA.
Definition noeol (s : string) : bool := nochar LF s && nochar CR s.

Definition name_val (o : option entry) : option (string * string) :=
  option_map (fun e => (e_name e, e_sval e)) o.
Definition core (o : option entry) : option (string * (string * string)) :=
  option_map (fun e => (e_name e, (e_sval e, e_comment e))) o.

(* last entry of a list with a given name *)
Fixpoint find_last (k : string) (es : list entry) : option entry :=
  match es with
  | [] => None
  | e :: r => match find_last k r with
              | Some x => Some x
              | None => if US.eqb k (e_name e) then Some e else None
              end
  end.

Inductive eol := EolLF | EolCRLF | EolCR.
Definition eol_str (e : eol) : string :=
  match e with
  | EolLF => [LF]
  | EolCRLF => String CR ([LF])
  | EolCR => [CR]
  end.
Definition join_lines (e : eol) (ls : list string) : string :=
  cat (map (fun l => l ++ eol_str e) ls).

(* equality of dumps, for the kernel correspondence *)
Fixpoint list_eqb {A} (eq : A -> A -> bool) (a b : list A) : bool :=
  match a, b with
  | [], [] => true
  | x :: a', y :: b' => eq x y && list_eqb eq a' b'
  | _, _ => false
  end.
Definition dump_eqb (a b : list (string * (string * (string * (string * string))))) : bool :=
  list_eqb (fun x y =>
    US.eqb (fst x) (fst y) && US.eqb (fst (snd x)) (fst (snd y))
    && US.eqb (fst (snd (snd x))) (fst (snd (snd y)))
    && US.eqb (fst (snd (snd (snd x)))) (fst (snd (snd (snd y))))
    && US.eqb (snd (snd (snd (snd x)))) (snd (snd (snd (snd y))))) a b.
Definition reads_as (text : string) (expected : list (string * (string * (string * (string * string))))) : bool :=
  dump_eqb (dump (read_text text)) expected.

(* an override whose name and value the client can pass through unharmed *)
Definition clean_param (p : string * string) : bool :=
  noeol (fst p) && noeol (snd p) && nocomma (fst p) && nocomma (snd p)
  && US.eqb (strip (fst p)) (fst p) && negb (is_comment (lstrip (fst p))) && negb (is_empty (lstrip (fst p))).

(* the same comparison without the Comment field (never consulted by the simulator) *)
Definition reads_as_nocomment (text : string) (expected : list (string * (string * (string * (string * string))))) : bool :=
  list_eqb (fun x y =>
    US.eqb (fst x) (fst y) && US.eqb (fst (snd x)) (fst (snd y))
    && US.eqb (fst (snd (snd x))) (fst (snd (snd y)))
    && US.eqb (snd (snd (snd (snd x)))) (snd (snd (snd (snd y))))) (dump (read_text text)) expected.

(* geophires_x_client.GeophiresInputParameters(params, from_file_path), current code (fix e85b257):
     base_lines = base_file.readlines(); f.writelines(base_lines)
     if base_lines and not base_lines[-1].endswith('\n'): f.write('\n')
   then one line "name, value\n" per override *)
Definition client_text (base : string) (params : list (string * string)) : string :=
  let u := universal base in
  (if complete u then u else u ++ [LF]) ++ cat (map param_line params).

(* the code points str.isspace() accepts, as a list (compared with the running interpreter's table on every check;
   Props/C12.v, C12_whitespace_table: is_ws c = true <-> In c ws_points) *)
Definition ws_points : list N :=
  [9; 10; 11; 12; 13; 28; 29; 30; 31; 32; 133; 160; 5760; 8192; 8193; 8194; 8195; 8196; 8197; 8198; 8199; 8200; 8201; 8202;
   8232; 8233; 8239; 8287; 12288].
Fixpoint nlist_eqb (a b : list N) : bool :=
  match a, b with [], [] => true | x :: a', y :: b' => (x =? y) && nlist_eqb a' b' | _, _ => false end.

(* Parameter.ReadParameter, list-valued parameters without a position ("Gradients, 50, 40, 30", "Thicknesses, 1, 1"):
     [float(x.strip()) for x in raw_entry.split('--')[0].split(',')[1:] if x.strip() != '']
   [before_dd] is str.split('--')[0]; [list_fields] are the texts handed to float() *)
Fixpoint before_dd (s : string) : string :=
  match s with
  | [] => []
  | c :: r => match r with
              | c2 :: _ => if UA.eqb c DASH && UA.eqb c2 DASH then [] else c :: before_dd r
              | [] => [c]
              end
  end.
Definition list_fields (raw : string) : list string :=
  filter (fun f => negb (is_empty f)) (map strip (tl (split_on COMMA (before_dd raw)))).
Fixpoint fields_eqb (a b : list string) : bool :=
  match a, b with [], [] => true | x :: a', y :: b' => US.eqb x y && fields_eqb a' b' | _, _ => false end.

(* ================= a caching client in front of the reader (GeophiresXClient._cache) =================
   get_geophires_result: cache_key = hash(input_params); hit -> the stored result, miss -> run and store.
   [serve] answers a history of requests; [key] is the cache key of a request, [run] what a fresh run returns. *)
Section Cache.
  Variables Req Key Res : Type.
  Variable key : Req -> Key.
  Variable keq : Key -> Key -> bool.
  Variable run : Req -> Res.
  Fixpoint cache_lookup (k : Key) (c : list (Key * Res)) : option Res :=
    match c with
    | [] => None
    | (k', x) :: r => if keq k k' then Some x else cache_lookup k r
    end.
  Fixpoint serve (c : list (Key * Res)) (rs : list Req) : list Res :=
    match rs with
    | [] => []
    | r :: t => match cache_lookup (key r) c with
                | Some x => x :: serve c t
                | None => let x := run r in x :: serve ((key r, x) :: c) t
                end
    end.
End Cache.

(* the real key: GeophiresInputParameters.__hash__ = hash(file path); requests are file paths, [fs] the files *)
Definition key_path (p : string) : string := p.
(* an order-insensitive alternative (NOT the code): the set of stripped non-blank lines of the file *)
Definition key_lineset (t : string) : list string :=
  filter (fun l => negb (is_empty l)) (map strip (readlines (universal t))).
Fixpoint mem_line (x : string) (l : list string) : bool := match l with [] => false | y :: r => US.eqb x y || mem_line x r end.
Definition lineset_eqb (a b : list string) : bool := forallb (fun x => mem_line x b) a && forallb (fun x => mem_line x a) b.
(* index of a path among the distinct files of a history: stands for "the result of that file" in the kernel check *)
Fixpoint index_of (p : string) (l : list string) (i : N) : N :=
  match l with [] => i | q :: r => if US.eqb p q then i else index_of p r (i + 1) end.
Definition cache_check (paths : list string) (observed : list N) : bool :=
  nlist_eqb (serve string string N key_path US.eqb (fun p => index_of p paths 0) [] paths) observed.
