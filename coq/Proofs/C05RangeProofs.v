(* Proofs/C05RangeProofs.v - the ranges the current source accepts (Gen/C05Ranges.v, regenerated on every run)
   lie inside the hypotheses of the bottom-hole temperature theorems. *)
From Coq Require Import QArith Qminmax List ZArith Bool Lia Lqa PeanoNat.
From Verif Require Import Base.Flat Proofs.FlatFacts Model.Gradient Proofs.GradientProofs Gen.C05Ranges.
Import ListNotations.
Open Scope Q_scope.

Definition in_ranges (i : bht_input) : Prop :=
  In (bi_n i) numseg_allowed /\
  tsurf_min <= bi_Ts i <= tsurf_max /\ tmax_min <= bi_Tmax i <= tmax_max /\
  (forall km, bi_depth_km i = Some km -> depth_km_min <= km <= depth_km_max) /\
  (forall v, In (Some v) (bi_thick i) -> thickness_km_min <= v <= thickness_km_max).

(* what the proofs need of the table *)
Lemma ranges_facts :
  Forall (fun n => (1 <= n <= 4)%nat) numseg_allowed /\ tmax_max < prefill /\ 0 < depth_km_min /\
  depth_km_max <= 100 /\ 0 < thickness_km_min /\ default_depth_km == default_depth.
Proof.
  split; [repeat constructor|]. split; [reflexivity|]. split; [reflexivity|]. split; [discriminate|].
  split; reflexivity.
Qed.
