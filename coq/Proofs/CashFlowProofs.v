(* Proofs/CashFlowProofs.v - lemmas about Model/CashFlow.v (C04, reused by C11 and C18), after a few facts about map2 / nth.
   The file also holds the definitions the C04 statements are written in: sale, product_revenue_spec, avoided_lbs_spec,
   carbon_revenue_spec, wf, prev_of, crossing; and the orders on series (Forall2 Qle, Forall2_one_lt) in which NPV is
   monotone.  It re-exports Proofs/FlatFacts.v. *)
From Coq Require Import QArith Qabs Qminmax Qpower Qfield List ZArith Bool Lia Lqa.
From Verif Require Import Base.Flat Model.CashFlow.
From Verif Require Export Proofs.FlatFacts.
Import ListNotations.
Open Scope Q_scope.

(* map2 truncates to the shorter series *)
Lemma map2_length_min {A B C} (f : A -> B -> C) : forall a b, length (map2 f a b) = Nat.min (length a) (length b).
Proof. induction a as [|x a IH]; intros [|y b]; simpl; auto. Qed.

Lemma map2_length {A B C} (f : A -> B -> C) : forall a b, length a = length b -> length (map2 f a b) = length a.
Proof. intros a b H. rewrite map2_length_min. lia. Qed.

Lemma nth_map2 {A B C} (f : A -> B -> C) da db dc : forall a b j,
  (j < length a)%nat -> (j < length b)%nat -> nth j (map2 f a b) dc = f (nth j a da) (nth j b db).
Proof.
  induction a as [|x a IH]; intros [|y b] j Ha Hb; simpl in *; try lia.
  destruct j as [|j]; [reflexivity|]. apply IH; lia.
Qed.

Lemma cashflow_operating_year c j : nth (ci_cy c + j) (total_cashflow c) 0 = nth j (total_ops c) 0.
Proof.
  unfold total_cashflow. rewrite <- (repeat_length (capex_year c) (ci_cy c)) at 1. apply app_nth2_plus.
Qed.

(* the documented operating-year cash flow, product by product *)
Definition sale (e p : list Q) (j : nat) : Q := nth j e 0 * nth j p 0 / million.
Definition product_revenue_spec (c : cf_in) (j : nat) : Q :=
  match ci_kind c with
  | KElec => sale (ci_eE c) (ci_pE c) j
  | KHeat => sale (ci_eH c) (ci_pH c) j
  | KCool => sale (ci_eC c) (ci_pC c) j
  | KCogen => sale (ci_eE c) (ci_pE c) j + sale (ci_eH c) (ci_pH c) j
  end.
Definition avoided_lbs_spec (c : cf_in) (j : nat) : Q :=
  match ci_kind c with
  | KElec => nth j (ci_eE c) 0 * ci_gi c
  | KHeat | KCool => nth j (ci_eH c) 0 * ci_ni c
  | KCogen => nth j (ci_eE c) 0 * ci_gi c + nth j (ci_eH c) 0 * ci_ni c
  end.
Definition carbon_revenue_spec (c : cf_in) (j : nat) : Q :=
  if ci_carbon c then avoided_lbs_spec c j * nth j (ci_pCarb c) 0 / million else 0.

(* well-formed run: every series the configuration uses has one entry per operating year *)
Definition wf (c : cf_in) (life : nat) : Prop :=
  length (ci_pE c) = life /\ length (ci_pH c) = life /\ length (ci_pC c) = life /\ length (ci_pCarb c) = life /\
  match ci_kind c with
  | KElec => length (ci_eE c) = life /\ (ci_carbon c = true -> True)
  | KHeat => length (ci_eH c) = life
  | KCool => length (ci_eC c) = life /\ (ci_carbon c = true -> length (ci_eH c) = life)
  | KCogen => length (ci_eE c) = life /\ length (ci_eH c) = life
  end.

Lemma lens_ok_wf c life : lens_ok c life = true -> wf c life.
Proof.
  unfold lens_ok, wf. cbv zeta. intros H. apply andb_prop in H as [H Hk].
  repeat (apply andb_prop in H; destruct H as [H ?]). repeat (split; [now apply Nat.eqb_eq|]).
  destruct (ci_kind c); try apply andb_prop in Hk as [Ha Hb]; try (now apply Nat.eqb_eq).
  - split; [now apply Nat.eqb_eq | trivial].
  - split; [now apply Nat.eqb_eq|]. intros Hc. rewrite Hc in Hb. now apply Nat.eqb_eq.
  - split; now apply Nat.eqb_eq.
Qed.

Lemma rev_ops_nth e p j : (j < length e)%nat -> (j < length p)%nat -> nth j (rev_ops e p) 0 = sale e p j.
Proof. intros. unfold rev_ops, sale. now rewrite (nth_map2 _ 0 0 0). Qed.

Lemma rev_ops_length_min e p : length (rev_ops e p) = Nat.min (length e) (length p).
Proof. apply map2_length_min. Qed.
Lemma rev_ops_length e p : length e = length p -> length (rev_ops e p) = length e.
Proof. apply map2_length. Qed.

Lemma product_rev_ops_length c life : wf c life ->
  length (product_rev_ops (ci_kind c) (ci_eE c) (ci_eH c) (ci_eC c) (ci_pE c) (ci_pH c) (ci_pC c)) = life.
Proof.
  unfold wf. intros (HpE & HpH & HpC & HpX & Hk). destruct (ci_kind c); simpl.
  - destruct Hk as [Hk _]. rewrite rev_ops_length; congruence.
  - rewrite rev_ops_length; congruence.
  - destruct Hk as [Hk _]. rewrite rev_ops_length; congruence.
  - destruct Hk as [H1 H2]. rewrite map2_length; rewrite !rev_ops_length; congruence.
Qed.

Lemma product_rev_ops_nth c life j : wf c life -> (j < life)%nat ->
  nth j (product_rev_ops (ci_kind c) (ci_eE c) (ci_eH c) (ci_eC c) (ci_pE c) (ci_pH c) (ci_pC c)) 0
  = product_revenue_spec c j.
Proof.
  unfold wf, product_revenue_spec. intros (HpE & HpH & HpC & HpX & Hk) Hj. destruct (ci_kind c); simpl.
  - destruct Hk as [Hk _]. apply rev_ops_nth; lia.
  - apply rev_ops_nth; lia.
  - destruct Hk as [Hk _]. apply rev_ops_nth; lia.
  - destruct Hk as [H1 H2]. rewrite (nth_map2 _ 0 0 0) by (rewrite rev_ops_length; lia).
    rewrite !rev_ops_nth by lia. reflexivity.
Qed.

Lemma carbon_lbs_length c life : wf c life -> ci_carbon c = true ->
  length (carbon_lbs_ops (ci_kind c) (ci_gi c) (ci_ni c) (ci_eE c) (ci_eH c)) = life.
Proof.
  unfold wf. intros (HpE & HpH & HpC & HpX & Hk) Hc. destruct (ci_kind c); simpl.
  - destruct Hk as [Hk _]. now rewrite map_length.
  - now rewrite map_length.
  - destruct Hk as [_ Hk]. rewrite map_length. auto.
  - destruct Hk as [H1 H2]. rewrite map2_length; congruence.
Qed.

Lemma carbon_lbs_nth c life j : wf c life -> ci_carbon c = true -> (j < life)%nat ->
  nth j (carbon_lbs_ops (ci_kind c) (ci_gi c) (ci_ni c) (ci_eE c) (ci_eH c)) 0 == avoided_lbs_spec c j.
Proof.
  unfold wf, avoided_lbs_spec. intros (HpE & HpH & HpC & HpX & Hk) Hc Hj. destruct (ci_kind c); simpl.
  - destruct Hk as [Hk _]. rewrite nth_map_Q by lia. ring.
  - rewrite nth_map_Q by lia. ring.
  - destruct Hk as [_ Hk]. specialize (Hk Hc). rewrite nth_map_Q by lia. ring.
  - destruct Hk as [H1 H2]. rewrite (nth_map2 _ 0 0 0) by lia. reflexivity.
Qed.

Lemma total_ops_length c life : wf c life -> length (total_ops c) = life.
Proof.
  intros Hwf. unfold total_ops. rewrite map_length.
  destruct (ci_carbon c) eqn:Hc.
  - rewrite map2_length.
    + now apply product_rev_ops_length.
    + rewrite (product_rev_ops_length c life Hwf). unfold carbon_rev_ops.
      rewrite map2_length; rewrite (carbon_lbs_length c life Hwf Hc); [reflexivity|].
      destruct Hwf as (_ & _ & _ & H & _). now rewrite H.
  - now apply product_rev_ops_length.
Qed.

Lemma total_ops_nth c life j : wf c life -> (j < life)%nat ->
  nth j (total_ops c) 0 == product_revenue_spec c j + carbon_revenue_spec c j - ci_coam c.
Proof.
  intros Hwf Hj. unfold total_ops, carbon_revenue_spec.
  pose proof (product_rev_ops_length c life Hwf) as Hlen.
  destruct (ci_carbon c) eqn:Hc.
  - pose proof (carbon_lbs_length c life Hwf Hc) as Hl2.
    assert (HpX : length (ci_pCarb c) = life) by (destruct Hwf as (_ & _ & _ & H & _); exact H).
    rewrite nth_map_Q.
    2:{ rewrite map2_length; [lia|]. unfold carbon_rev_ops. rewrite map2_length; lia. }
    rewrite (nth_map2 _ 0 0 0); [| lia | unfold carbon_rev_ops; rewrite map2_length; lia].
    rewrite (product_rev_ops_nth c life j Hwf Hj).
    unfold carbon_rev_ops. rewrite (nth_map2 _ 0 0 0) by lia.
    rewrite (carbon_lbs_nth c life j Hwf Hc Hj). reflexivity.
  - rewrite nth_map_Q by lia. rewrite (product_rev_ops_nth c life j Hwf Hj). ring.
Qed.

Lemma running_from_length acc l : length (running_from acc l) = length l.
Proof. revert acc. induction l as [|x l IH]; intros acc; simpl; auto. Qed.

Lemma running_from_nth : forall l acc i, (i < length l)%nat ->
  nth i (running_from acc l) 0 == acc + sumQ (firstn (S i) l).
Proof.
  induction l as [|x l IH]; intros acc [|i] Hi; cbn [length] in Hi; try lia;
    rewrite firstn_cons; cbn [running_from nth sumQ].
  - cbn [firstn sumQ]. ring.
  - rewrite IH by lia. ring.
Qed.

Lemma running_from_step : forall l acc i, (S i < length l)%nat ->
  nth (S i) (running_from acc l) 0 == nth i (running_from acc l) 0 + nth (S i) l 0.
Proof.
  induction l as [|x l IH]; intros acc i Hi; cbn [length] in Hi; [lia|].
  destruct i as [|i]; [|apply (IH (acc + x) i); lia].
  destruct l; [cbn [length] in Hi; lia | reflexivity].
Qed.

Lemma running_red_from_eq : forall l a a', a == a' ->
  Forall2 Qeq (running_red_from a l) (running_from a' l).
Proof.
  induction l as [|x l IH]; intros a a' H; cbn [running_red_from running_from]; constructor.
  - transitivity (a + x); [apply Qred_correct | now rewrite H].
  - apply IH. transitivity (a + x); [apply Qred_correct | now rewrite H].
Qed.

(* the cumulative series turns from non-positive to positive in year i (Python's cum[-1] at i = 0) *)
Definition prev_of (cum : list Q) (i : nat) : Q :=
  match i with O => last cum 0 | S k => nth k cum 0 end.
Definition crossing (cum : list Q) (i : nat) : Prop :=
  (i < length cum)%nat /\ 0 < nth i cum 0 /\ prev_of cum i <= 0.

Lemma frac_bounds prev c : 0 < c -> 0 <= Qabs prev / (c + Qabs prev) /\ Qabs prev / (c + Qabs prev) <= 1.
Proof.
  intros Hc. pose proof (Qabs_nonneg prev) as Ha.
  assert (Hd : 0 < c + Qabs prev) by lra.
  split; [apply Qle_shift_div_l | apply Qle_shift_div_r]; lra.
Qed.

(* loop invariant: the accumulator is 0 with no crossing so far, or lies in the year of a crossing seen so far *)
Definition pb_inv (cum : list Q) (i : nat) (acc : Q) : Prop :=
  (acc = 0 /\ forall k, (k < i)%nat -> ~ crossing cum k) \/
  (exists k, (k < i)%nat /\ crossing cum k /\ natQ k <= acc /\ acc <= natQ k + 1).

Lemma payback_loop_inv cum : forall rest done prev i acc,
  cum = done ++ rest -> i = length done -> prev = prev_of cum i ->
  pb_inv cum i acc -> pb_inv cum (length cum) (payback_loop prev i rest acc).
Proof.
  induction rest as [|c rest IH]; intros done prev i acc Hc Hi Hp Hinv.
  - simpl. replace (length cum) with i; [exact Hinv|]. now rewrite Hc, app_nil_r.
  - simpl.
    assert (Hnth : nth i cum 0 = c).
    { rewrite Hc, Hi. rewrite app_nth2 by lia. now rewrite Nat.sub_diag. }
    assert (Hlt : (i < length cum)%nat) by (rewrite Hc, app_length, Hi; simpl; lia).
    apply (IH (done ++ [c]) c (S i)).
    + now rewrite <- app_assoc.
    + rewrite app_length, Hi. simpl. lia.
    + simpl. now rewrite Hnth.
    + destruct (Qltb 0 c && Qleb prev 0) eqn:E.
      * apply andb_prop in E. destruct E as [E1 E2].
        apply Qltb_true in E1. apply Qleb_true in E2.
        right. exists i. split; [lia|]. split.
        { unfold crossing. rewrite Hnth, <- Hp. auto. }
        destruct (frac_bounds prev c E1). lra.
      * destruct Hinv as [[H0 Hno] | (k & Hk & Hcr & Hb)].
        { left. split; [assumption|]. intros k Hk Hcr.
          destruct (Nat.eq_dec k i) as [->|Hne]; [|apply (Hno k); [lia|assumption]].
          destruct Hcr as (_ & Hpos & Hprev). rewrite Hnth in Hpos. rewrite <- Hp in Hprev.
          apply Qltb_true in Hpos. apply Qleb_true in Hprev. rewrite Hpos, Hprev in E. discriminate. }
        { right. exists k. split; [lia|]. auto. }
Qed.

Lemma payback_inv cum : pb_inv cum (length cum) (payback cum).
Proof.
  unfold payback. apply (payback_loop_inv cum cum [] (last cum 0) 0%nat 0); try reflexivity.
  left. split; [reflexivity|]. intros k Hk. lia.
Qed.

Lemma payback_bracket cum : 0 < payback cum ->
  exists i, crossing cum i /\ natQ i <= payback cum /\ payback cum <= natQ i + 1.
Proof.
  intros Hpos. destruct (payback_inv cum) as [[H0 _] | (k & _ & Hcr & Hb)].
  - rewrite H0 in Hpos. lra.
  - exists k. auto.
Qed.

(* no such year: the payback period stays 0.0, which the report prints as N/A *)
Lemma payback_none cum : (forall i, ~ crossing cum i) -> payback cum = 0.
Proof.
  intros Hno. destruct (payback_inv cum) as [[H0 _] | (k & _ & Hcr & _)]; [assumption|].
  exfalso. exact (Hno k Hcr).
Qed.

(* with a non-positive first cumulative entry a crossing at i = 0 is impossible, so a zero payback period means
   that there is no crossing at all *)
Lemma payback_zero_iff cum : nth 0 cum 0 <= 0 -> (payback cum == 0 <-> forall i, ~ crossing cum i).
Proof.
  intros H0. split.
  - intros Hz i Hcr. destruct (payback_inv cum) as [[_ Hno] | (k & _ & Hk & Hb)].
    + destruct Hcr as (Hlt & ?). apply (Hno i Hlt). split; auto.
    + destruct k as [|k].
      * destruct Hk as (_ & Hp & _). lra.
      * pose proof (natQ_nonneg k). rewrite natQ_S in Hb. lra.
  - intros Hno. now rewrite (payback_none cum Hno).
Qed.

Lemma npv_red_eq r : forall cf, npv_red r cf == npv r cf.
Proof.
  induction cf as [|x cf IH]; cbn [npv_red npv]; [reflexivity|].
  transitivity (x + npv_red r cf / (1 + r)); [apply Qred_correct | now rewrite IH].
Qed.

Lemma calculate_npv_red_eq r cf d : calculate_npv_red r cf d == calculate_npv r cf d.
Proof. unfold calculate_npv_red, calculate_npv. destruct d; apply npv_red_eq. Qed.

(* Horner form = the documented discounted sum  sum_t cf_t / (1+r)^t *)
Lemma npv_sigma_from_eq r : ~ 1 + r == 0 -> forall cf t,
  npv_sigma_from r t cf == npv r cf / Qpower (1 + r) (Z.of_nat t).
Proof.
  intros Hr. induction cf as [|x cf IH]; intros t; simpl.
  - unfold Qdiv. ring.
  - rewrite IH. rewrite Qpower_succ.
    assert (Hp : ~ Qpower (1 + r) (Z.of_nat t) == 0) by (apply Qpower_not_0; assumption).
    field. split; assumption.
Qed.

Lemma npv_is_discounted_sum r cf : ~ 1 + r == 0 -> npv r cf == npv_sigma_from r 0 cf.
Proof. intros Hr. rewrite npv_sigma_from_eq by assumption. simpl. field. Qed.

Lemma npv_conventions r cf : ~ 1 + r == 0 ->
  calculate_npv r cf true * (1 + r) == calculate_npv r cf false.
Proof. intros Hr. unfold calculate_npv. simpl. field. assumption. Qed.

Lemma npv_mono r : 0 < 1 + r -> forall cf cf', Forall2 Qle cf cf' -> npv r cf <= npv r cf'.
Proof.
  intros Hr cf cf' H. apply Qinv_lt_0_compat in Hr.
  induction H as [|x y l l' Hxy _ IH]; simpl; [lra|]. unfold Qdiv. nra.
Qed.

(* year by year not above, and strictly below in at least one year *)
Inductive Forall2_one_lt : list Q -> list Q -> Prop :=
| F2lt_here x y l l' : x < y -> Forall2 Qle l l' -> Forall2_one_lt (x :: l) (y :: l')
| F2lt_later x y l l' : x <= y -> Forall2_one_lt l l' -> Forall2_one_lt (x :: l) (y :: l').

Lemma npv_strict_mono r : 0 < 1 + r -> forall cf cf', Forall2_one_lt cf cf' -> npv r cf < npv r cf'.
Proof.
  intros Hr cf cf' H. induction H as [x y l l' Hxy Hl | x y l l' Hxy _ IH]; simpl.
  - apply (npv_mono r Hr) in Hl. apply Qinv_lt_0_compat in Hr. unfold Qdiv. nra.
  - apply Qinv_lt_0_compat in Hr. unfold Qdiv. nra.
Qed.

Lemma F2le_refl : forall l : list Q, Forall2 Qle l l.
Proof. induction l; constructor; auto. apply Qle_refl. Qed.
Lemma F2le_map2_plus : forall a a' b b', Forall2 Qle a a' -> Forall2 Qle b b' ->
  Forall2 Qle (map2 Qplus a b) (map2 Qplus a' b').
Proof.
  intros a a' b b' Ha. revert b b'. induction Ha as [|x x' a a' Hx Ha IH]; intros b b' Hb; [constructor|].
  destruct Hb as [|y y' b b' Hy Hb]; simpl; constructor; [lra | now apply IH].
Qed.
Lemma F2le_map (f : Q -> Q) : (forall x y, x <= y -> f x <= f y) -> forall a a', Forall2 Qle a a' -> Forall2 Qle (map f a) (map f a').
Proof. intros Hf a a' H. induction H; simpl; constructor; auto. Qed.
(* the strict order survives what the cash flow adds to the product revenue *)
Lemma F2lt_map_minus k : forall a a', Forall2_one_lt a a' ->
  Forall2_one_lt (map (fun r => r - k) a) (map (fun r => r - k) a').
Proof.
  intros a a' H. induction H as [x y l l' Hxy Hl | x y l l' Hxy _ IH]; simpl.
  - apply F2lt_here; [lra|]. apply F2le_map; [intros; lra | assumption].
  - apply F2lt_later; [lra | assumption].
Qed.
Lemma F2lt_app_l : forall pre a a', Forall2_one_lt a a' -> Forall2_one_lt (pre ++ a) (pre ++ a').
Proof. induction pre as [|x pre IH]; intros a a' H; simpl; [assumption|]. apply F2lt_later; [apply Qle_refl | now apply IH]. Qed.
(* map2 truncates to the shorter series: the other summand must cover the years of the one that rises *)
Lemma F2lt_map2_plus_l : forall a a', Forall2_one_lt a a' -> forall b b', Forall2 Qle b b' ->
  (length a <= length b)%nat -> Forall2_one_lt (map2 Qplus a b) (map2 Qplus a' b').
Proof.
  intros a a' H. induction H as [x y l l' Hxy Hl | x y l l' Hxy _ IH]; intros b b' Hb Hlen.
  - destruct Hb as [|u u' b b' Hu Hb]; [inversion Hlen|]. simpl.
    apply F2lt_here; [lra | now apply F2le_map2_plus].
  - destruct Hb as [|u u' b b' Hu Hb]; [inversion Hlen|]. simpl in *.
    apply F2lt_later; [lra | apply IH; [assumption | lia]].
Qed.
Lemma F2lt_map2_plus_r : forall b b', Forall2_one_lt b b' -> forall a a', Forall2 Qle a a' ->
  (length b <= length a)%nat -> Forall2_one_lt (map2 Qplus a b) (map2 Qplus a' b').
Proof.
  intros b b' H. induction H as [x y l l' Hxy Hl | x y l l' Hxy _ IH]; intros a a' Ha Hlen.
  - destruct Ha as [|u u' a a' Hu Ha]; [inversion Hlen|]. simpl.
    apply F2lt_here; [lra | now apply F2le_map2_plus].
  - destruct Ha as [|u u' a a' Hu Ha]; [inversion Hlen|]. simpl in *.
    apply F2lt_later; [lra | apply IH; [assumption | lia]].
Qed.
