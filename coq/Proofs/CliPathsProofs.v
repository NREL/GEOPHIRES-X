(* Proofs/CliPathsProofs.v - lemmas about Model/CliPaths.v (C20): absolute normalised paths are fixed points of
   parse, of .absolute() and of the derivation of the JSON path; what the entry points hand to main() is such a path. *)
From Coq Require Import String Ascii List Bool Arith ZArith Lia.
From Verif Require Import Model.Tokenizer Model.CliPaths.
Import ListNotations.
Open Scope string_scope.

Lemma nochar_app x a b : nochar x (a ++ b) = nochar x a && nochar x b.
Proof. induction a; cbn; [reflexivity|]. now rewrite IHa, andb_assoc. Qed.

Lemma split_on_nochar x s : nochar x s = true -> split_on x s = [s].
Proof.
  induction s as [|c r IH]; cbn; [reflexivity|]. intros H. apply andb_prop in H as [H1 H2].
  apply negb_true_iff in H1. now rewrite H1, (IH H2).
Qed.

Lemma split_on_app x a b : nochar x a = true -> split_on x (a ++ String x b) = a :: split_on x b.
Proof.
  induction a as [|c r IH]; cbn; [now rewrite Ascii.eqb_refl|]. intros H. apply andb_prop in H as [H1 H2].
  apply negb_true_iff in H1. now rewrite H1, (IH H2).
Qed.

Lemma split_on_parts x s : Forall (fun c => nochar x c = true) (split_on x s).
Proof.
  induction s as [|c r IH]; cbn [split_on]; [repeat constructor|].
  destruct (Ascii.eqb c x) eqn:E; [constructor; [reflexivity | exact IH]|].
  destruct (split_on x r) as [|h t]; [repeat constructor; cbn; now rewrite E|].
  inversion IH; subst. constructor; [cbn; rewrite E; cbn; assumption | assumption].
Qed.

Lemma comps_wf s : forallb wf_part (comps s) = true.
Proof.
  unfold comps. apply forallb_forall. intros c H. apply filter_In in H as [H1 H2].
  unfold wf_part. rewrite H2. cbn. pose proof (split_on_parts SLASH s) as F. rewrite Forall_forall in F. now apply F.
Qed.

Lemma wf_part_inv c : wf_part c = true -> good_part c = true /\ nochar SLASH c = true.
Proof. unfold wf_part. intros H. now apply andb_prop in H. Qed.

Lemma split_join l : forallb wf_part l = true -> l <> [] -> split_on SLASH (join_sl l) = l.
Proof.
  induction l as [|x r IH]; [congruence|]. intros H _. cbn in H. apply andb_prop in H as [Hx Hr].
  apply wf_part_inv in Hx as [_ Hx]. destruct r as [|y r'].
  - cbn. now apply split_on_nochar.
  - change (join_sl (x :: y :: r')) with (x ++ String SLASH (join_sl (y :: r'))).
    rewrite split_on_app by assumption. f_equal. apply IH; [assumption | discriminate].
Qed.

Lemma filter_good l : forallb wf_part l = true -> filter good_part l = l.
Proof. induction l as [|x r IH]; [reflexivity|]. cbn. intros H. apply andb_prop in H as [Hx Hr].
  apply wf_part_inv in Hx as [Hx _]. now rewrite Hx, IH. Qed.

Lemma comps_join l : forallb wf_part l = true -> comps (join_sl l) = l.
Proof. intros H. unfold comps. destruct l as [|x r]; [reflexivity|]. rewrite split_join by (assumption || discriminate).
  now apply filter_good. Qed.

Lemma comps_slash s : comps (String SLASH s) = comps s.
Proof. unfold comps. cbn [split_on]. rewrite Ascii.eqb_refl. reflexivity. Qed.

Lemma head_not_slash l : forallb wf_part l = true ->
  match join_sl l with String c _ => Ascii.eqb c SLASH = false | EmptyString => True end.
Proof.
  destruct l as [|x r]; [exact (fun _ => I)|]. cbn [forallb]. intros H. apply andb_prop in H as [Hx _].
  apply wf_part_inv in Hx as [G N]. destruct x as [|c x']; [discriminate G|].
  cbn in N. apply andb_prop in N as [N _]. apply negb_true_iff in N.
  destruct r; cbn; exact N.
Qed.

(* str(path) parses back to the path: absolute, normalised paths are fixed points of pathlib's parser *)
Lemma parse_to_str p : wf_abs p = true -> parse (to_str p) = p.
Proof.
  destruct p as [root parts]. unfold wf_abs. cbn [p_root p_parts]. intros H. apply andb_prop in H as [Hr Hp].
  pose proof (head_not_slash parts Hp) as Hh. pose proof (comps_join parts Hp) as Hc.
  unfold to_str, parse. cbn [p_root p_parts].
  (* root "/" or "//": the parts begin with no slash, so exactly the root's slashes are read back as the root *)
  apply orb_prop in Hr as [Hr | Hr]; apply String.eqb_eq in Hr; subst root; cbn [is_empty andb append]; f_equal.
  1, 3: destruct (join_sl parts) as [|c r]; [reflexivity|]; cbn; now rewrite Hh.
  all: now rewrite !comps_slash.
Qed.

Lemma to_str_parse_idem p : wf_abs p = true -> to_str (parse (to_str p)) = to_str p.
Proof. intros H. now rewrite parse_to_str. Qed.

Lemma root_of_cases s : root_of s = "" \/ root_of s = "/" \/ root_of s = "//".
Proof.
  destruct s as [|a r]; [now left|]. cbn. destruct (Ascii.eqb a SLASH); [|now left].
  destruct r as [|b r2]; [now right; left|]. destruct (Ascii.eqb b SLASH); [|now right; left].
  destruct r2 as [|c r3]; [now right; right|]. destruct (Ascii.eqb c SLASH); [now right; left | now right; right].
Qed.

Lemma join_wf cwd s : wf_abs (parse cwd) = true -> wf_abs (join (parse cwd) (parse s)) = true.
Proof.
  intros H. unfold join. destruct (is_abs (parse s)) eqn:A.
  - unfold wf_abs, is_abs, parse in *. cbn [p_root p_parts] in *. rewrite comps_wf, andb_true_r.
    destruct (root_of_cases s) as [E | [E | E]]; rewrite E in *; [discriminate A | reflexivity | reflexivity].
  - unfold wf_abs in *. cbn [p_root p_parts] in *. apply andb_prop in H as [Hr Hp].
    rewrite Hr, forallb_app, Hp. cbn [parse p_parts]. now rewrite comps_wf.
Qed.

Lemma parse_absolute cwd s : wf_abs (parse cwd) = true -> parse (absolute cwd s) = join (parse cwd) (parse s).
Proof. intros H. unfold absolute. apply parse_to_str. now apply join_wf. Qed.

Lemma wf_abs_is_abs p : wf_abs p = true -> is_abs p = true.
Proof. unfold wf_abs, is_abs. intros H. apply andb_prop in H as [H _].
  apply orb_prop in H as [H | H]; apply String.eqb_eq in H; now rewrite H. Qed.

(* an absolute, normalised path is unchanged by .absolute() in any directory, and by the OS in any directory *)
Lemma absolute_fixed base p : wf_abs p = true -> absolute base (to_str p) = to_str p.
Proof. intros H. unfold absolute, join. now rewrite parse_to_str, wf_abs_is_abs. Qed.

Lemma absolute_absolute base cwd s : wf_abs (parse cwd) = true -> absolute base (absolute cwd s) = absolute cwd s.
Proof. intros H. unfold absolute at 2. apply absolute_fixed. now apply join_wf. Qed.

Lemma split_last_nochar x y s a b : split_last x s = Some (a, b) -> nochar y s = true -> nochar y a = true /\ nochar y b = true.
Proof.
  revert a b. induction s as [|c r IH]; intros a b; cbn [split_last]; [discriminate|].
  intros H N. cbn in N. apply andb_prop in N as [N1 N2].
  destruct (split_last x r) as [[a' b']|].
  - inversion H; subst. destruct (IH a' b eq_refl N2) as [Ha Hb]. split; [cbn; now rewrite N1, Ha | exact Hb].
  - destruct (Ascii.eqb c x); [|discriminate]. inversion H; subst. split; [reflexivity | exact N2].
Qed.

Lemma stem_nochar y n : nochar y n = true -> nochar y (stem n) = true.
Proof. intros N. unfold stem. destruct (split_last DOT n) as [[a b]|] eqn:E; [|exact N].
  destruct (is_empty a || is_empty b); [exact N|]. now destruct (split_last_nochar _ y _ _ _ E N). Qed.

Lemma json_name_wf n : nochar SLASH n = true -> wf_part (json_name n) = true.
Proof.
  intros N. unfold wf_part, json_name. apply andb_true_intro. split.
  - unfold good_part. destruct (stem n) as [|c [|c2 r]]; [reflexivity | |]; cbn; destruct (Ascii.eqb c "."); reflexivity.
  - rewrite nochar_app, (stem_nochar SLASH n N). reflexivity.
Qed.

Lemma with_suffix_is_json_name n : with_suffix_json_name n = json_name n.
Proof. unfold with_suffix_json_name, json_name, stem. destruct (split_last DOT n) as [[a b]|]; [|reflexivity].
  now destruct (is_empty a || is_empty b). Qed.

Lemma forallb_last {A} (f : A -> bool) l d : forallb f l = true -> l <> [] -> f (last l d) = true.
Proof. induction l as [|x r IH]; [congruence|]. intros H _. cbn in H. apply andb_prop in H as [Hx Hr].
  destruct r; [exact Hx | apply IH; [exact Hr | discriminate]]. Qed.

Lemma forallb_removelast {A} (f : A -> bool) l : forallb f l = true -> forallb f (removelast l) = true.
Proof. induction l as [|x r IH]; [reflexivity|]. intros H. cbn in H. apply andb_prop in H as [Hx Hr].
  destruct r; [reflexivity|]. cbn [removelast forallb]. rewrite Hx. now apply IH. Qed.

Lemma with_name_wf p n q : wf_abs p = true -> wf_part n = true -> with_name p n = Some q -> wf_abs q = true.
Proof.
  unfold with_name. destruct (is_empty (name p)); [discriminate|]. intros H Hn E. inversion E; subst. clear E.
  unfold wf_abs in *. cbn [p_root p_parts]. apply andb_prop in H as [Hr Hp]. rewrite Hr. cbn [andb].
  unfold parent_parts. rewrite forallb_app, (forallb_removelast _ _ Hp). cbn. now rewrite Hn.
Qed.

Lemma name_wf p : wf_abs p = true -> p_parts p <> [] -> wf_part (name p) = true.
Proof. intros H Hne. apply forallb_last; [|exact Hne]. unfold wf_abs in H. now apply andb_prop in H as [_ H]. Qed.

Lemma with_name_json_wf p q : wf_abs p = true -> with_name p (json_name (name p)) = Some q -> wf_abs q = true.
Proof.
  intros H Q. eapply with_name_wf; [exact H | | exact Q]. apply json_name_wf.
  unfold with_name in Q. destruct (is_empty (name p)) eqn:E; [discriminate|].
  apply name_wf, wf_part_inv in H; [tauto|]. intros Z. unfold name in E. now rewrite Z in E.
Qed.

(* on an absolute normalised path the JSON path is computed on the path itself ... *)
Lemma json_path_abs p : wf_abs p = true -> json_path (to_str p) = option_map to_str (with_name p (json_name (name p))).
Proof. intros H. unfold json_path. now rewrite parse_to_str. Qed.

(* ... and is again absolute and normalised: no later .absolute() moves it *)
Lemma json_path_fixed base p : wf_abs p = true -> option_map (absolute base) (json_path (to_str p)) = json_path (to_str p).
Proof.
  intros H. rewrite json_path_abs by assumption. destruct (with_name p _) as [q|] eqn:Q; [|reflexivity].
  cbn [option_map]. f_equal. apply absolute_fixed. now apply (with_name_json_wf p).
Qed.

Lemma main_files_absolute_out cwd pkg a0 inp p :
  wf_abs p = true ->
  main_files cwd pkg [a0; inp; to_str p] = {| f_report := to_str p; f_json := json_path (to_str p) |}.
Proof. intros W. unfold main_files. cbn [nth_error]. f_equal; [now apply absolute_fixed | now apply json_path_fixed]. Qed.

Lemma cli_files cwd pkg inp out : wf_abs (parse cwd) = true ->
  main_files cwd pkg (cli_argv cwd inp (Some out)) =
  {| f_report := absolute cwd out; f_json := json_path (absolute cwd out) |}.
Proof. intros H. apply main_files_absolute_out. now apply join_wf. Qed.

Lemma hip_files_absolute pkg a pin pout : wf_abs pin = true -> wf_abs pout = true ->
  hip_files pkg [a; to_str pin; to_str pout] = {| h_input := to_str pin; h_report := to_str pout |}.
Proof. intros Wi Wo. unfold hip_files. cbn [nth nth_error]. now rewrite !absolute_fixed. Qed.

(* a file system is an association list in which the last write to a path wins *)
Lemma fs_lookup_set_same p c fs : fs_lookup p (fs_set p c fs) = Some c.
Proof. induction fs as [|[q d] r IH]; cbn; [now rewrite String.eqb_refl|].
  destruct (String.eqb p q) eqn:E; cbn; rewrite E; [reflexivity | exact IH]. Qed.

Lemma fs_lookup_set_other p q c fs : String.eqb p q = false -> fs_lookup p (fs_set q c fs) = fs_lookup p fs.
Proof. intros N. induction fs as [|[q2 d] r IH]; cbn; [now rewrite N|].
  destruct (String.eqb q q2) eqn:E; cbn.
  - apply String.eqb_eq in E. subst. now rewrite N.
  - destruct (String.eqb p q2); [reflexivity | exact IH]. Qed.

Lemma after_runs_from runs : forall fs p,
  fs_lookup p (fold_left (write_report false) runs fs)
  = match last_run_to p runs with Some id => Some [id] | None => fs_lookup p fs end.
Proof.
  induction runs as [|[q id] r IH]; intros fs p; [reflexivity|]. cbn [fold_left last_run_to]. rewrite IH.
  destruct (last_run_to p r); [reflexivity|]. unfold write_report.
  destruct (String.eqb p q) eqn:E.
  - apply String.eqb_eq in E. subst. apply fs_lookup_set_same.
  - now apply fs_lookup_set_other.
Qed.
