(* Proofs/CostsProofs.v - the roll-up of Model/Costs.v: the identities that C03 shares with C16 (ITC / grant clause) and
   C11 (neutral elements), the lateral sections, and the plant cost against its adjustment factor.  The identities
   that are one unfolding of a definition deep are proved where they are stated, in Props/C03.v. *)
From Coq Require Import QArith Qminmax Qfield List ZArith Bool Lqa.
From Verif Require Import Base.Flat Model.Costs Proofs.FlatFacts.
Import ListNotations.
Open Scope Q_scope.

Lemma itc_exact k :
  (k_ritc_provided k = true -> ritc_value k == k_ritc k * ccap_pre k /\
                               ccap k == (1 - k_ritc k) * ccap_pre k + k_flat k - k_other k - k_grant k) /\
  (k_ritc_provided k = false -> ritc_value k == 0 /\ ccap k == ccap_pre k + k_flat k - k_other k - k_grant k).
Proof. split; intros H; unfold ccap, ritc_value; rewrite H; split; ring. Qed.

Lemma wellfield k :
  (k_ppwc_valid k = false -> k_sbt k = false ->
     cwell k == (105 # 100) * (k_c1p_corr k * k_nprod k + k_c1i_corr k * k_ninj k + k_lateral k)) /\
  (k_ppwc_valid k = false -> k_sbt k = true ->
     cwell k == k_c1p_corr k * k_nprod k + k_c1i_corr k * k_ninj k + k_lateral k + k_junction k) /\
  (k_ppwc_valid k = true ->
     cwell k == k_ppwc k * k_nprod k + (if k_piwc_provided k then k_piwc k else k_ppwc k) * k_ninj k).
Proof.
  unfold cwell, wells_sum, c1p, c1i. repeat apply conj; repeat intros ->; reflexivity.
Qed.

Lemma no_chiller_opex k : k_is_chiller k = false -> chilleropex k = 0.
Proof. intros H. unfold chilleropex. now rewrite H. Qed.

(* zero incentives, fees and a zero-rate credit change nothing (C11) *)
Lemma neutral_adjustments k : k_ritc k == 0 -> k_flat k == 0 -> k_other k == 0 -> k_grant k == 0 ->
  ccap k == ccap_pre k.
Proof.
  intros Hr Hf Ho Hg. unfold ccap, ritc_value. destruct (k_ritc_provided k); [rewrite Hr|]; lra.
Qed.

(* the network length taken from the population density lies between 1 and 7.5 km per km2, whatever the density *)
Lemma dh_length_bounds d : 0 <= d_area d ->
  d_area d <= dh_length_from_density d /\ dh_length_from_density d <= (75 # 10) * d_area d.
Proof.
  intros Ha. unfold dh_length_from_density. cbv zeta. destruct (Qltb_spec 1000 (dh_density d)).
  - split; lra.
  - split; [apply Q.le_max_r | apply Q.max_lub; [|lra]].
    assert (0 <= (1000 - dh_density d) * d_area d) by (apply Qmult_le_0_compat; lra).
    setoid_replace (dh_density d / 1000 * (75 # 10) * d_area d) with ((75 # 10000) * (dh_density d * d_area d)) by field.
    lra.
Qed.

Lemma direct_use_cost_mono adj adj' mw : 0 <= mw -> adj <= adj' -> direct_use_cost adj mw <= direct_use_cost adj' mw.
Proof. intros Hm Ha. unfold direct_use_cost, q1288, q112, q115. nra. Qed.

(* plant cost is non-decreasing in its adjustment factor when the correlation and the heat loads are non-negative *)
Lemma plant_cost_mono_adj p adj adj' : p_fixed_valid p = false -> 0 <= p_corr p -> 0 <= p_max_he p -> 0 <= p_max_hp_over_eff p ->
  adj <= adj' ->
  plant_cost {| p_kind := p_kind p; p_cogen := p_cogen p; p_fixed_valid := p_fixed_valid p; p_fixed := p_fixed p; p_adj := adj;
                p_max_he := p_max_he p; p_eq_provided := p_eq_provided p; p_eq_in := p_eq_in p; p_max_eq := p_max_eq p;
                p_max_peaking := p_max_peaking p; p_corr := p_corr p; p_max_hp_over_eff := p_max_hp_over_eff p;
                p_ratio_provided := p_ratio_provided p; p_ratio_in := p_ratio_in p |}
  <= plant_cost {| p_kind := p_kind p; p_cogen := p_cogen p; p_fixed_valid := p_fixed_valid p; p_fixed := p_fixed p; p_adj := adj';
                p_max_he := p_max_he p; p_eq_provided := p_eq_provided p; p_eq_in := p_eq_in p; p_max_eq := p_max_eq p;
                p_max_peaking := p_max_peaking p; p_corr := p_corr p; p_max_hp_over_eff := p_max_hp_over_eff p;
                p_ratio_provided := p_ratio_provided p; p_ratio_in := p_ratio_in p |}.
Proof.
  destruct p as [kind cogen fv fx a he ep ei me mp corr hp rp ri].
  cbn [p_kind p_cogen p_fixed_valid p_fixed p_max_he p_eq_provided p_eq_in p_max_eq p_max_peaking p_corr p_max_hp_over_eff
       p_ratio_provided p_ratio_in].
  (* the switch is substituted before the definitions are unfolded: it occurs many times afterwards *)
  intros -> Hc Hh Hm Ha. unfold plant_cost, capex_elec_plant, capex_heat_plant, equipment_cost.
  cbn [p_kind p_cogen p_fixed_valid p_adj p_max_he p_eq_provided p_eq_in p_max_eq p_max_peaking p_corr p_max_hp_over_eff].
  pose proof (direct_use_cost_mono adj adj' _ Hh Ha). pose proof (direct_use_cost_mono adj adj' _ Hm Ha).
  (* without a power plant the factor enters through the direct-use cost only: the end-use equipment is the same *)
  destruct kind; try lra.
  assert (q1288 * adj * corr * (102 # 100) * (110 # 100) <= q1288 * adj' * corr * (102 # 100) * (110 # 100))
    by (unfold q1288, q112, q115; nra).
  destruct cogen; lra.
Qed.

Lemma lateral_uncased_half pm simple coef nsec len per_m adj v :
  lateral_cost v pm simple false coef nsec len per_m adj == (1 # 2) * lateral_cost v pm simple true coef nsec len per_m adj.
Proof.
  unfold lateral_cost. destruct v; [ring|].
  destruct (pm || simple || Qltb (len / nsec) 500); unfold Qdiv; ring.
Qed.

Lemma lateral_per_metre pm simple cased coef nsec len per_m adj :
  ~ nsec == 0 -> pm = true \/ simple = true \/ len / nsec < 500 ->
  lateral_cost false pm simple cased coef nsec len per_m adj == adj * ((if cased then 1 else 1 # 2) * (per_m * len) / 1000000).
Proof.
  intros Hn H. unfold lateral_cost.
  assert (E : pm || simple || Qltb (len / nsec) 500 = true).
  { destruct H as [-> | [-> | H]]; [reflexivity | now rewrite orb_true_r | ].
    apply Qltb_true in H. rewrite H. apply orb_true_r. }
  rewrite E. destruct cased; field; exact Hn.
Qed.

Lemma lateral_by_correlation cased coef nsec len per_m adj :
  500 <= len / nsec ->
  lateral_cost false false false cased coef nsec len per_m adj == adj * ((if cased then 1 else 1 # 2) * nsec * quad_cost coef (len / nsec)).
Proof.
  intros H. unfold lateral_cost. cbn [orb]. destruct (Qltb_spec (len / nsec) 500); [lra|]. destruct cased; ring.
Qed.
