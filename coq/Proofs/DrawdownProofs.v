(* Proofs/DrawdownProofs.v - the reservoir temperature histories of Model/Drawdown.v: the time vector is ordered, the
   percentage-drawdown and single-fracture series fall from bottom-hole temperature when injection is not hotter (erf and
   sqrt enter through the stated hypotheses), model 2 stays in its range, and what of this survives the redrilling step *)
From Coq Require Import QArith Qabs Qminmax List ZArith Bool Lia Lqa PeanoNat.
From Verif Require Import Base.Flat Proofs.FlatFacts Model.Redrill Model.Drawdown Proofs.RedrillProofs.
Import ListNotations.
Open Scope Q_scope.

Fixpoint nondec (l : list Q) : Prop :=
  match l with
  | x :: r => match r with y :: _ => x <= y | [] => True end /\ nondec r
  | [] => True
  end.
Fixpoint noninc (l : list Q) : Prop :=
  match l with
  | x :: r => match r with y :: _ => y <= x | [] => True end /\ noninc r
  | [] => True
  end.

(* what C05 claims of a finished history of models 3 and 4: both series have n steps, the reservoir series starts at
   and never exceeds bottom-hole temperature and does not rise from one step to the next, except where redrilling
   starts a new cycle (step S j with S j a multiple of the reported index) *)
Definition history_ok (Trock : Q) (n : nat) (rd : redrilled) : Prop :=
  length (rd_T rd) = n /\ length (rd_P rd) = n /\
  hd 0 (rd_T rd) == Trock /\
  Forall (fun x => x <= Trock) (rd_T rd) /\
  forall j, (S j < n)%nat -> (rd_index rd = 0%nat \/ (S j mod rd_index rd <> 0)%nat) ->
            nth (S j) (rd_T rd) 0 <= nth j (rd_T rd) 0.

Lemma noninc_nth : forall l a, noninc l -> (S a < length l)%nat -> nth (S a) l 0 <= nth a l 0.
Proof.
  induction l as [|x r IH]; intros a H Ha; cbn in Ha. lia.
  destruct H as [H1 H2]. destruct a.
  - destruct r as [|y r]; cbn in Ha. lia. cbn. exact H1.
  - cbn [nth]. apply IH. exact H2. lia.
Qed.

(* an order-reversing map turns a non-decreasing list (inside the domain D) into a non-increasing one *)
Lemma map_antitone (D : Q -> Prop) (f : Q -> Q) :
  (forall x y, D x -> D y -> x <= y -> f y <= f x) ->
  forall l, Forall D l -> nondec l -> noninc (map f l).
Proof.
  intros Hf. induction l as [|x r IH]; intros HD H; cbn. exact I.
  inversion HD as [|? ? Dx Dr]; subst. destruct H as [H1 H2]. split; [|apply IH; assumption].
  destruct r as [|y r]; cbn. exact I. inversion Dr; subst. apply Hf; assumption.
Qed.

Lemma ramp_nondec c : 0 <= c -> forall len s, nondec (map (fun i => natQ i * c) (seq s len)).
Proof.
  intros Hc. induction len; intros s; cbn. exact I. split; [|apply IHlen].
  destruct len; cbn. exact I. rewrite natQ_S. lra.
Qed.

Lemma ramp_nonneg c : 0 <= c -> forall len s, Forall (fun t => 0 <= t) (map (fun i => natQ i * c) (seq s len)).
Proof.
  intros Hc. induction len; intros s; cbn; constructor. apply Qmult_le_0_compat; [apply natQ_nonneg|exact Hc]. apply IHlen.
Qed.

Lemma ramp_pos c : 0 < c -> forall len s, (1 <= s)%nat -> Forall (fun t => 0 < t) (map (fun i => natQ i * c) (seq s len)).
Proof.
  intros Hc. induction len; intros s Hs; cbn; constructor. apply Qmult_lt_0_compat; [apply natQ_pos, Hs|exact Hc]. apply IHlen. lia.
Qed.

Lemma linspace_step_nonneg L n : 0 <= L -> (2 <= n)%nat -> 0 <= L / natQ (n - 1).
Proof. intros HL Hn. apply Qle_shift_div_l. apply natQ_pos. lia. lra. Qed.

Lemma linspace_step_pos L n : 0 < L -> (2 <= n)%nat -> 0 < L / natQ (n - 1).
Proof. intros HL Hn. apply Qlt_shift_div_l. apply natQ_pos. lia. lra. Qed.

Lemma timevector_length L n : length (timevector L n) = n.
Proof.
  unfold timevector. destruct n as [|[|n]]; cbn [length]; try reflexivity.
  rewrite map_length, seq_length. reflexivity.
Qed.

Lemma timevector_nonempty L n : (1 <= n)%nat -> timevector L n <> [].
Proof. intros Hn E. apply (f_equal (@length Q)) in E. rewrite timevector_length in E. subst n. inversion Hn. Qed.

Lemma timevector_hd L n : hd 0 (timevector L n) == 0.
Proof. unfold timevector. destruct n as [|[|n]]; [reflexivity|reflexivity|]. cbn. unfold natQ. cbn. ring. Qed.

Lemma timevector_nondec L n : 0 <= L -> nondec (timevector L n).
Proof.
  intros HL. unfold timevector. destruct n as [|[|n]]; [exact I|exact (conj I I)|].
  apply ramp_nondec. apply linspace_step_nonneg; [assumption|lia].
Qed.

Lemma timevector_nonneg L n : 0 <= L -> Forall (fun t => 0 <= t) (timevector L n).
Proof.
  intros HL. unfold timevector. destruct n as [|[|n]]; try (cbn; repeat constructor; lra).
  apply ramp_nonneg. apply linspace_step_nonneg; [assumption|lia].
Qed.

Lemma nondec_tl l : nondec l -> nondec (tl l).
Proof. destruct l; cbn. intros _; exact I. intros [_ H]. exact H. Qed.

Lemma timevector_tl_pos L n : 0 < L -> Forall (fun t => 0 < t) (tl (timevector L n)).
Proof.
  intros HL. unfold timevector. destruct n as [|[|n]]; [cbn; constructor|cbn; constructor|].
  change (seq 0 (S (S n))) with (0%nat :: seq 1 (S n)). cbn [map tl].
  apply ramp_pos. apply linspace_step_pos; [assumption|lia]. lia.
Qed.

(* the one non-linear step of the order arguments below; lra does the rest *)
Lemma mul_diff_nonneg a b c d : a <= b -> c <= d -> 0 <= (b - a) * (d - c).
Proof. intros. apply Qmult_le_0_compat; lra. Qed.

Lemma tdp_antitone Trock Tinj dd x y : 0 <= dd -> Tinj <= Trock -> x <= y ->
  tdp_T Trock Tinj dd y <= tdp_T Trock Tinj dd x.
Proof.
  intros Hd HT Hxy. unfold tdp_T. pose proof (mul_diff_nonneg 0 dd x y Hd Hxy) as P.
  pose proof (mul_diff_nonneg 0 _ Tinj Trock P HT). lra.
Qed.

Lemma tdp_le_Trock Trock Tinj dd t : 0 <= dd -> Tinj <= Trock -> 0 <= t -> tdp_T Trock Tinj dd t <= Trock.
Proof.
  intros Hd HT Ht. unfold tdp_T. pose proof (mul_diff_nonneg 0 dd 0 t Hd Ht) as P.
  pose proof (mul_diff_nonneg 0 _ Tinj Trock P HT). lra.
Qed.

Theorem tdp_head Trock Tinj dd ts : ts <> [] -> hd 0 ts == 0 -> hd 0 (tdp_series Trock Tinj dd ts) == Trock.
Proof. destruct ts as [|t r]; [intros H; destruct (H eq_refl)|]. intros _ H. cbn in *. unfold tdp_T. rewrite H. ring. Qed.

Theorem tdp_noninc Trock Tinj dd ts : 0 <= dd -> Tinj <= Trock -> nondec ts -> noninc (tdp_series Trock Tinj dd ts).
Proof.
  intros Hd HT Hs. apply (map_antitone (fun _ => True)); [|apply Forall_forall; intros; exact I|exact Hs].
  intros x y _ _ Hxy. apply tdp_antitone; assumption.
Qed.

Theorem tdp_bounded Trock Tinj dd ts : 0 <= dd -> Tinj <= Trock -> Forall (fun t => 0 <= t) ts ->
  Forall (fun x => x <= Trock) (tdp_series Trock Tinj dd ts).
Proof.
  intros Hd HT Hs. unfold tdp_series. induction Hs; cbn; constructor. apply tdp_le_Trock; assumption. assumption.
Qed.

Section SingleFractureFacts.
  Variables erf sqrt : Q -> Q.
  Hypothesis erf_mono : forall x y, 0 <= x -> x <= y -> erf x <= erf y.
  Hypothesis erf_range : forall x, 0 <= x -> 0 <= erf x /\ erf x <= 1.
  Hypothesis sqrt_mono : forall x y, 0 <= x -> x <= y -> sqrt x <= sqrt y.
  Hypothesis sqrt_nonneg : forall x, 0 <= x -> 0 <= sqrt x.

  Variables dd cpw K : Q.
  Hypothesis dd_pos : 0 < dd.
  Hypothesis cpw_pos : 0 < cpw.
  Hypothesis K_nonneg : 0 <= K.

  Lemma sf_coef_pos : 0 < 1 / dd / cpw.
  Proof. apply Qlt_shift_div_l. assumption. rewrite Qmult_0_l. apply Qlt_shift_div_l. assumption. lra. Qed.

  Lemma secs_per_year_pos : 0 < secs_per_year.
  Proof. unfold secs_per_year. reflexivity. Qed.

  Lemma radicand_nonneg t : 0 < t -> 0 <= K / t / secs_per_year.
  Proof.
    intros Ht. apply Qle_shift_div_l. apply secs_per_year_pos. rewrite Qmult_0_l. apply Qle_shift_div_l. assumption. lra.
  Qed.

  Lemma radicand_antitone t1 t2 : 0 < t1 -> t1 <= t2 -> K / t2 / secs_per_year <= K / t1 / secs_per_year.
  Proof.
    intros H1 H12. apply Qmult_le_compat_r; [|discriminate].
    apply Qle_shift_div_r; [lra|]. pose proof (Qmult_div_r K t1) as E.
    assert (H : 0 <= K / t1) by (apply Qle_shift_div_l; lra). pose proof (mul_diff_nonneg 0 _ t1 t2 H H12). lra.
  Qed.

  Lemma sf_arg_nonneg t : 0 < t -> 0 <= sf_arg sqrt dd cpw K t.
  Proof.
    intros Ht. unfold sf_arg. apply Qmult_le_0_compat; [apply Qlt_le_weak, sf_coef_pos|apply sqrt_nonneg, radicand_nonneg, Ht].
  Qed.

  Lemma sf_arg_antitone t1 t2 : 0 < t1 -> t1 <= t2 -> sf_arg sqrt dd cpw K t2 <= sf_arg sqrt dd cpw K t1.
  Proof.
    intros H1 H12. unfold sf_arg. assert (H2 : 0 < t2) by lra.
    apply Qmult_le_l; [apply sf_coef_pos|].
    exact (sqrt_mono _ _ (radicand_nonneg t2 H2) (radicand_antitone t1 t2 H1 H12)).
  Qed.

  Variables Trock Tinj : Q.
  Hypothesis inj_below : Tinj <= Trock.

  Lemma sf_T_antitone t1 t2 : 0 < t1 -> 0 < t2 -> t1 <= t2 ->
    sf_T erf sqrt Trock Tinj dd cpw K t2 <= sf_T erf sqrt Trock Tinj dd cpw K t1.
  Proof.
    intros H1 H2 H12. unfold sf_T.
    pose proof (erf_mono _ _ (sf_arg_nonneg t2 H2) (sf_arg_antitone t1 t2 H1 H12)) as He.
    pose proof (mul_diff_nonneg _ _ Tinj Trock He inj_below). lra.
  Qed.

  Lemma sf_T_le_Trock t : 0 < t -> sf_T erf sqrt Trock Tinj dd cpw K t <= Trock.
  Proof.
    intros Ht. unfold sf_T. destruct (erf_range _ (sf_arg_nonneg t Ht)) as [_ He].
    pose proof (mul_diff_nonneg _ _ Tinj Trock He inj_below). lra.
  Qed.

  Theorem sf_noninc_bounded ts : Forall (fun t => 0 < t) (tl ts) -> nondec (tl ts) ->
    noninc (sf_series erf sqrt Trock Tinj dd cpw K ts) /\
    Forall (fun x => x <= Trock) (sf_series erf sqrt Trock Tinj dd cpw K ts).
  Proof.
    destruct ts as [|t0 r]; cbn [tl sf_series]. intros; split; [exact I|constructor].
    intros Hpos Hnd.
    assert (Hb : Forall (fun x => x <= Trock) (map (sf_T erf sqrt Trock Tinj dd cpw K) r)).
    { clear Hnd. induction Hpos; cbn; constructor. apply sf_T_le_Trock; assumption. assumption. }
    split.
    - cbn [noninc]. split.
      + destruct r; cbn. exact I. inversion Hb; assumption.
      + apply (map_antitone (fun t => 0 < t)); try assumption. intros x y Hx Hy Hxy. apply sf_T_antitone; assumption.
    - constructor. lra. exact Hb.
  Qed.
End SingleFractureFacts.

Theorem sf_head erf sqrt Trock Tinj dd cpw K ts : ts <> [] -> hd 0 (sf_series erf sqrt Trock Tinj dd cpw K ts) = Trock.
Proof. destruct ts; [intros H; destruct (H eq_refl)|reflexivity]. Qed.

(* the executed form (library values as data) is the same function *)
Lemma sf_series_data_eq erf sqrt Trock Tinj dd cpw K t0 r :
  sf_series erf sqrt Trock Tinj dd cpw K (t0 :: r)
  = sf_series_data Trock Tinj (map (fun t => erf (sf_arg sqrt dd cpw K t)) r).
Proof. unfold sf_series, sf_series_data, sf_T. rewrite map_map. reflexivity. Qed.

Lemma sf_series_length erf sqrt Trock Tinj dd cpw K ts : length (sf_series erf sqrt Trock Tinj dd cpw K ts) = length ts.
Proof. destruct ts; cbn [sf_series length]. reflexivity. rewrite map_length. reflexivity. Qed.

Lemma lhs_clamp_Trock Trock Tinj : lhs_clamp Trock Tinj Trock = Trock.
Proof. unfold lhs_clamp. destruct (Qltb Trock Trock || Qltb Trock Tinj); reflexivity. Qed.

Lemma lhs_clamp_range Trock Tinj x :
  lhs_clamp Trock Tinj x = Trock \/ (Tinj <= lhs_clamp Trock Tinj x /\ lhs_clamp Trock Tinj x <= Trock).
Proof.
  unfold lhs_clamp. destruct (Qltb_spec Trock x); cbn [orb]; [left; reflexivity|].
  destruct (Qltb_spec x Tinj); [left; reflexivity|right; lra].
Qed.

(* a non-increasing history stays non-increasing inside every cycle; it can only rise where a new cycle starts *)
Theorem cycles_noninc P T maxdd : noninc T -> length T = length P ->
  forall j, (S j < length P)%nat ->
    (index_of P maxdd = 0%nat \/ (S j mod index_of P maxdd <> 0)%nat) ->
    nth (S j) (rd_T (redrill P T maxdd)) 0 <= nth j (rd_T (redrill P T maxdd)) 0.
Proof.
  intros Hn HT j Hj Hc. destruct (Nat.eq_dec (index_of P maxdd) 0) as [E|E].
  - rewrite redrill_unchanged by assumption. cbn [rd_T]. apply noninc_nth. exact Hn. lia.
  - destruct Hc as [Hc|Hc]; [contradiction|].
    destruct (redrill_cycle P T maxdd E HT (S j) Hj) as [_ H1].
    destruct (redrill_cycle P T maxdd E HT j) as [_ H0]. lia.
    rewrite H1, H0, succ_mod by assumption.
    apply noninc_nth. exact Hn.
    pose proof (Nat.mod_upper_bound (S j) _ E) as Hu. rewrite succ_mod in Hu by assumption.
    pose proof (index_lt P maxdd E). lia.
Qed.

Lemma minus_lists_length : forall a b, length b = length a -> length (minus_lists a b) = length a.
Proof.
  induction a as [|x a IH]; intros b H; destruct b as [|y b]; cbn in *; try lia. rewrite IH by lia. reflexivity.
Qed.

Lemma history_ok_intro Trock n T drops maxdd : length T = n -> length drops = n ->
  hd 0 T == Trock -> Forall (fun x => x <= Trock) T -> noninc T ->
  history_ok Trock n (finish T drops maxdd).
Proof.
  intros HT Hd Hh Hb Hi. unfold finish, history_ok.
  assert (HP : length (minus_lists T drops) = n) by (rewrite minus_lists_length; [exact HT|rewrite Hd; symmetry; exact HT]).
  assert (HTP : length T = length (minus_lists T drops)) by (rewrite HP; exact HT).
  destruct (redrill_length (minus_lists T drops) T maxdd) as [L1 L2].
  rewrite L1, (L2 HTP), HP. split; [reflexivity|]. split; [reflexivity|]. split.
  - rewrite head_preserved. exact Hh.
  - split; [apply cycles_bounded, Hb|].
    intros j Hj Hc. rewrite redrill_index in Hc. apply cycles_noninc; try assumption. rewrite HP. exact Hj.
Qed.

