(* Proofs/FlatFacts.v - what several models' proofs share about Base/Flat.v: reflection of the boolean comparisons,
   [natQ] against the order and arithmetic of nat, [sumQ], the successor step of a rational power, and [nth] on
   [repeat], on a mapped list, on [firstn] and on [skipn]. *)
From Coq Require Import QArith Qabs Qminmax Qpower List ZArith Bool Lia Lqa Morphisms.
From Verif Require Import Base.Flat.
Import ListNotations.
Open Scope Q_scope.

Lemma Qltb_true a b : Qltb a b = true <-> a < b.
Proof.
  unfold Qltb. rewrite negb_true_iff. split; intros H.
  - apply Qnot_le_lt. intros Hle. apply Qle_bool_iff in Hle. congruence.
  - destruct (Qle_bool b a) eqn:E; [|reflexivity]. apply Qle_bool_iff in E. lra.
Qed.

Lemma Qltb_false a b : Qltb a b = false <-> b <= a.
Proof.
  unfold Qltb. rewrite negb_false_iff. apply Qle_bool_iff.
Qed.

Lemma Qleb_true a b : Qleb a b = true <-> a <= b.
Proof. apply Qle_bool_iff. Qed.

Lemma Qleb_false a b : Qleb a b = false <-> b < a.
Proof.
  unfold Qleb. split; intros H.
  - apply Qnot_le_lt. intros Hle. apply Qle_bool_iff in Hle. congruence.
  - destruct (Qle_bool a b) eqn:E; [|reflexivity]. apply Qle_bool_iff in E. lra.
Qed.

Lemma Qeqb_true a b : Qeqb a b = true <-> a == b.
Proof. apply Qeq_bool_iff. Qed.

Lemma Qeqb_false a b : Qeqb a b = false <-> ~ a == b.
Proof. rewrite <- Qeqb_true. symmetry. apply not_true_iff_false. Qed.

Global Instance Qltb_wd : Proper (Qeq ==> Qeq ==> eq) Qltb.
Proof. intros a a' Ea b b' Eb. unfold Qltb. now rewrite (Qleb_comp _ _ Eb _ _ Ea). Qed.

Lemma Qltb_spec a b : reflect (a < b) (Qltb a b).
Proof. destruct (Qltb a b) eqn:E; constructor. now apply Qltb_true. apply Qltb_false in E. lra. Qed.

Lemma Qleb_spec a b : reflect (a <= b) (Qleb a b).
Proof. destruct (Qleb a b) eqn:E; constructor. now apply Qleb_true. apply Qleb_false in E. lra. Qed.

Lemma sumQ_red_from_eq l : forall acc, sumQ_red_from acc l == acc + sumQ l.
Proof.
  induction l as [|x r IH]; intros acc; cbn [sumQ_red_from sumQ].
  - ring.
  - rewrite IH. rewrite Qred_correct. ring.
Qed.

Lemma sumQ_red_eq l : sumQ_red l == sumQ l.
Proof. unfold sumQ_red. rewrite sumQ_red_from_eq. ring. Qed.

Lemma sumQ_app a b : sumQ (a ++ b) == sumQ a + sumQ b.
Proof. induction a as [|x r IH]; cbn [app sumQ]. ring. rewrite IH. ring. Qed.

Lemma close_0_eq a b : close 0 a b = true -> a == b.
Proof.
  unfold close. intros H. apply Qle_bool_iff in H.
  rewrite Qmult_0_l in H.
  pose proof (Qabs_nonneg (a - b)) as Hn.
  assert (Hz : Qabs (a - b) <= 0) by lra.
  apply Qabs_Qle_condition in Hz. lra.
Qed.

Lemma natQ_S i : natQ (S i) == natQ i + 1.
Proof. unfold natQ. rewrite Nat2Z.inj_succ, <- Z.add_1_r, inject_Z_plus. reflexivity. Qed.

Lemma natQ_le a b : (a <= b)%nat -> natQ a <= natQ b.
Proof. intros H. unfold natQ. rewrite <- Zle_Qle. lia. Qed.

Lemma natQ_nonneg i : 0 <= natQ i.
Proof. apply (natQ_le 0). lia. Qed.

Lemma natQ_pos i : (0 < i)%nat -> 0 < natQ i.
Proof. intros H. unfold natQ. change 0 with (inject_Z 0). rewrite <- Zlt_Qlt. lia. Qed.

Lemma Qpower_succ (a : Q) (n : nat) : a ^ Z.of_nat (S n) == a ^ Z.of_nat n * a.
Proof. rewrite Nat2Z.inj_succ. unfold Z.succ. rewrite Qpower_plus' by lia. simpl. reflexivity. Qed.

Lemma nth_repeat_lt {A} (x d : A) n j : (j < n)%nat -> nth j (repeat x n) d = x.
Proof. revert j. induction n as [|n IH]; intros [|j] H; cbn; try lia; [reflexivity | apply IH; lia]. Qed.

Lemma nth_map_seq {A} (f : nat -> A) a n j d : (j < n)%nat -> nth j (map f (seq a n)) d = f (a + j)%nat.
Proof.
  intros H. rewrite (nth_indep _ d (f O)) by (rewrite map_length, seq_length; exact H).
  rewrite map_nth, seq_nth by exact H. reflexivity.
Qed.

Lemma nth_map_Q (f : Q -> Q) l t : (t < length l)%nat -> nth t (map f l) 0 = f (nth t l 0).
Proof. intros H. rewrite (nth_indep _ 0 (f 0)) by (rewrite map_length; exact H). apply map_nth. Qed.

Lemma nth_firstn_lt {A} (d : A) : forall m (l : list A) j, (j < m)%nat -> nth j (firstn m l) d = nth j l d.
Proof.
  induction m as [|m IH]; intros l j H. lia. destruct l as [|x l]. reflexivity.
  destruct j as [|j]. reflexivity. cbn [firstn nth]. apply IH. lia.
Qed.

Lemma nth_skipn {A} (d : A) : forall i (l : list A) j, nth j (skipn i l) d = nth (i + j) l d.
Proof.
  induction i as [|i IH]; intros l j. reflexivity.
  destruct l as [|x l]. cbn. destruct j; reflexivity. cbn [skipn Nat.add nth]. apply IH.
Qed.
