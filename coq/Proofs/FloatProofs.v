(* Proofs/FloatProofs.v - facts about the float model Model/Float.v: rounding to 53 bits is within half a unit of the
   last kept bit (ties included) of the exact integer, + - * are the exact result rounded once, the extremes
   are elements of the series; the average and two forms of table cell written out. *)
From Coq Require Import String Ascii QArith ZArith List Bool Lia.
From Verif Require Import Model.Fmt Model.Float.
Import ListNotations.
Open Scope Z_scope.

(* the tie-to-even choice between q and q+1 for a = q*P + r, r compared with the half h of P *)
Lemma half_even_pick a P h q r : P = 2 * h -> a = q * P + r -> 0 <= r < P ->
  let q' := match r ?= h with Lt => q | Gt => q + 1 | Eq => if Z.even q then q else q + 1 end in
  2 * Z.abs (q' * P - a) <= P /\ q <= q' <= q + 1.
Proof.
  intros -> -> Hr. cbv zeta. destruct (Z.compare_spec r h); [destruct (Z.even q)|..]; lia.
Qed.

Lemma round53_spec m e : forall m' e', round53 m e = (m', e') ->
  e <= e' /\ 2 * Z.abs (m' * 2 ^ (e' - e) - m) <= 2 ^ (e' - e) /\ Z.abs m' <= 2 ^ 53 /\ (m = 0 <-> m' = 0).
Proof.
  intros m' e'. unfold round53. set (a := Z.abs m). set (L := Z.log2 a).
  assert (UB : a < 2 ^ Z.succ L).
  { destruct (Z.eq_dec a 0) as [->|N]; [reflexivity|]. apply Z.log2_spec. unfold a in *. lia. }
  destruct (Z.leb_spec L 52) as [HL|HL]; intros [= <- <-].
  - (* at most 53 bits: kept as it is *)
    rewrite Z.sub_diag, Z.pow_0_r, Z.mul_1_r, Z.sub_diag. fold a.
    assert (2 ^ Z.succ L <= 2 ^ 53) by (apply Z.pow_le_mono_r; lia). change (Z.abs 0) with 0. lia.
  - (* d low bits dropped: a = q * 2^d + r *)
    set (d := L - 52). assert (Hd : 0 < d) by (unfold d; lia).
    assert (Ha : 0 < a) by (apply Z.nle_gt; intros N; apply Z.log2_nonpos in N; fold L in N; lia).
    rewrite Z.shiftr_div_pow2, !Z.shiftl_mul_pow2, Z.mul_1_l, Z.add_simpl_l by lia.
    set (P := 2 ^ d). assert (HP : 0 < P) by (apply Z.pow_pos_nonneg; lia).
    assert (E2 : P = 2 * 2 ^ (d - 1)) by (unfold P; rewrite <- Z.pow_succ_r by lia; f_equal; lia).
    set (q := a / P). pose proof (Z.div_mod a P ltac:(lia)) as Dm. fold q in Dm.
    assert (Hq : 1 <= q < 2 ^ 53).
    { split.
      - apply Z.div_le_lower_bound; [exact HP|]. destruct (Z.log2_spec a Ha) as [LB _]. fold L in LB.
        assert (P <= 2 ^ L) by (apply Z.pow_le_mono_r; unfold d; lia). lia.
      - apply Z.div_lt_upper_bound; [exact HP|]. unfold P. rewrite <- Z.pow_add_r by lia.
        replace (d + 53) with (Z.succ L) by (unfold d; lia). exact UB. }
    destruct (half_even_pick a P (2 ^ (d - 1)) q (a - q * P) E2 ltac:(lia)) as (C1 & C2);
      [pose proof (Z.mod_pos_bound a P HP); lia|].
    set (q' := match _ ?= _ with Lt => q | Gt => q + 1 | Eq => if Z.even q then q else q + 1 end) in *.
    clearbody q' q P.
    (* the result carries the sign of m; each clause is then linear in q' * P, a and q *)
    destruct (Z.ltb_spec m 0) as [Hm|Hm]; [assert (Em : m = - a) by lia|assert (Em : m = a) by lia];
      clear - Hd C1 C2 Hq Ha Em; clearbody a; subst m; repeat split; lia.
Qed.

(* the sum / difference / product are formed exactly and rounded once *)
Lemma fadd_exact mx ex my ey : fadd (FD mx ex) (FD my ey) =
  mk (mx * 2 ^ (ex - Z.min ex ey) + my * 2 ^ (ey - Z.min ex ey)) (Z.min ex ey).
Proof. unfold fadd. rewrite !Z.shiftl_mul_pow2 by lia. reflexivity. Qed.

Lemma fsub_exact mx ex my ey : fsub (FD mx ex) (FD my ey) =
  mk (mx * 2 ^ (ex - Z.min ex ey) - my * 2 ^ (ey - Z.min ex ey)) (Z.min ex ey).
Proof. unfold fsub. rewrite !Z.shiftl_mul_pow2 by lia. reflexivity. Qed.

Lemma fmul_exact mx ex my ey r : fmul (FD mx ex) (FD my ey) = Some r -> mk (mx * my) (ex + ey) = Some r.
Proof. unfold fmul. destruct (_ && _); [discriminate|]. exact (fun H => H). Qed.

(* what mk returns: +0 for an exact zero, else the 53-bit rounding of the exact value, never further than half a unit
   of its last bit *)
Lemma mk_spec s e0 m e : mk s e0 = Some (FD m e) ->
  (s = 0 /\ m = 0) \/
  (s <> 0 /\ e0 <= e /\ 2 * Z.abs (m * 2 ^ (e - e0) - s) <= 2 ^ (e - e0) /\ Z.abs m <= 2 ^ 53 /\ m <> 0).
Proof.
  unfold mk. destruct (s =? 0) eqn:Z0.
  - apply Z.eqb_eq in Z0. intros H. inversion H. left. auto.
  - apply Z.eqb_neq in Z0. destruct (round53 s e0) as [m' e'] eqn:R.
    destruct ((-1022 <=? Z.log2 (Z.abs m') + e') && (Z.log2 (Z.abs m') + e' <? 1024)); [|discriminate].
    intros H. inversion H; subst. right. destruct (round53_spec _ _ _ _ R) as (A & B & C & D). repeat split; try assumption. tauto.
Qed.

(* an operation of the model never returns the marker *)
Lemma mk_not_bad s e : mk s e <> Some FBad.
Proof.
  unfold mk. destruct (s =? 0); [discriminate|]. destruct (round53 s e). destruct (_ && _); discriminate.
Qed.

Lemma extreme_in keep : forall l best x, extreme keep best l = Some x -> In x (best :: l).
Proof.
  induction l as [|y l IH]; intros best x H; cbn [extreme] in H.
  - injection H as ->. left. reflexivity.
  - destruct (keep best y) as [[|]|]; [| |discriminate]; apply IH in H; destruct H as [->|H]; simpl; auto.
Qed.

Theorem np_max_in l x : np_max l = Some x -> In x l.
Proof. unfold np_max. destruct l as [|[m e|] r]; try discriminate. apply extreme_in. Qed.

Theorem np_min_in l x : np_min l = Some x -> In x l.
Proof. unfold np_min. destruct l as [|[m e|] r]; try discriminate. apply extreme_in. Qed.

(* the average is the pairwise sum divided by the count; a series cell of a table row is the series at the row's index *)
Lemma np_average_def l : l <> [] -> np_average l = match np_sum l with Some s => fdiv s (FD (Z.of_nat (length l)) 0) | None => None end.
Proof. destruct l; [congruence|reflexivity]. Qed.

Lemma seval_row_leaf idx l : seval (Some idx) (SRow (ALeaf l)) = match nth_error l idx with Some x => not_bad x | None => None end.
Proof. reflexivity. Qed.

Lemma seval_ratio_to_first idx l :
  seval (Some idx) (SDiv (SRow (ALeaf l)) (SIdx (ALeaf l) 0)) = bind2 fdiv (aget (Some idx) (ALeaf l) idx) (aget (Some idx) (ALeaf l) 0).
Proof. reflexivity. Qed.
