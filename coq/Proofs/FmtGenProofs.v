(* Proofs/FmtGenProofs.v - the value of a '{:w.pg}' field: trailing zeros removed from a fraction do not change its value,
   the positional and the exponent layout of P significant digits both read back as m * 10^(x-P+1). *)
From Coq Require Import String Ascii QArith Qabs Qround ZArith List Bool Lia Lqa.
From Verif Require Import Model.Fmt Proofs.FmtProofs Proofs.FmtSciProofs.
Import ListNotations.
Open Scope Z_scope.
Local Arguments digit_char : simpl never.
Local Arguments is_digit : simpl never.
Local Arguments digit_val : simpl never.
Local Opaque digit_char.

Lemma strip0_rev_spec l : exists k, l = repeat 0 k ++ strip0_rev l.
Proof.
  induction l as [|d l IH]; [exists 0%nat; reflexivity|].
  destruct (Z.eq_dec d 0) as [->|N].
  - destruct IH as (k & E). exists (S k). simpl. rewrite <- E. reflexivity.
  - exists 0%nat. simpl. destruct d; try reflexivity. congruence.
Qed.

Lemma rev_repeat0 k : rev (repeat 0 k) = repeat 0 k.
Proof. induction k; [reflexivity|]. simpl. rewrite IHk. symmetry. apply repeat_cons. Qed.

Lemma strip0_spec ds : exists k, ds = strip0 ds ++ repeat 0 k.
Proof.
  unfold strip0. destruct (strip0_rev_spec (rev ds)) as (k & E). exists k.
  rewrite <- (rev_involutive ds) at 1. rewrite E at 1. rewrite rev_app_distr, rev_repeat0. reflexivity.
Qed.

Lemma dval_zeros k : dval (repeat 0 k) = 0.
Proof. induction k; [reflexivity|]. simpl. rewrite dval_cons0. exact IHk. Qed.

Lemma Forall_digit_zeros k : Forall digit (repeat 0 k).
Proof. apply Forall_forall. intros d H. apply repeat_spec in H. subst d. unfold digit. lia. Qed.

Lemma strip0_digits ds : Forall digit ds -> Forall digit (strip0 ds).
Proof. intros H. destruct (strip0_spec ds) as (k & E). rewrite E in H. apply Forall_app in H. tauto. Qed.

(* value of "ip . fp" when fp loses its trailing zeros *)
Lemma frac_strip ip fp :
  (inject_Z (dval (ip ++ strip0 fp)) / inject_Z (pow10 (length (strip0 fp)))
   == inject_Z (dval (ip ++ fp)) / inject_Z (pow10 (length fp)))%Q.
Proof.
  destruct (strip0_spec fp) as (k & E). set (fp' := strip0 fp) in *. rewrite E. clearbody fp'. clear E.
  rewrite app_assoc, (dval_app (ip ++ fp')), dval_zeros, app_length, !repeat_length, Z.add_0_r.
  unfold pow10. rewrite Nat2Z.inj_add, Z.pow_add_r, !inject_Z_mult by lia. fold (pow10 (length fp')) (pow10 k).
  pose proof (pow10_Qpos (length fp')). pose proof (pow10_Qpos k). field. split; lra.
Qed.

Lemma Forall_firstn_skipn {A} (P : A -> Prop) k l : Forall P l -> Forall P (firstn k l) /\ Forall P (skipn k l).
Proof. intros H. rewrite <- (firstn_skipn k l) in H. apply Forall_app in H. exact H. Qed.

(* the positional layout keeps the digits' value and puts length ds - x - 1 of them after the point *)
Lemma positional_spec ds x : Forall digit ds -> ds <> [] -> x < Z.of_nat (length ds) ->
  let '(ip, fp) := positional ds x in
  Forall digit ip /\ ip <> [] /\ Forall digit fp /\
  dval (ip ++ fp) = dval ds /\ Z.of_nat (length fp) = Z.of_nat (length ds) - x - 1.
Proof.
  intros F NE Hx. unfold positional. destruct (Z.ltb_spec x 0) as [Ex|Ex].
  - repeat split; [constructor; [unfold digit; lia|constructor]|discriminate| | |].
    + apply Forall_app. split; [apply Forall_digit_zeros|exact F].
    + change ([0] ++ ?z ++ ds) with (repeat 0 (S (Z.to_nat (- x - 1))) ++ ds). rewrite dval_app, dval_zeros. lia.
    + rewrite app_length, repeat_length. lia.
  - set (k := Z.to_nat (x + 1)). assert (Hk : (1 <= k <= length ds)%nat) by (unfold k; lia).
    replace (k - length ds)%nat with 0%nat by lia. cbn [repeat]. rewrite app_nil_r, firstn_skipn, skipn_length.
    repeat split; [apply (Forall_firstn_skipn digit k ds F)| |apply (Forall_firstn_skipn digit k ds F)|unfold k; lia].
    destruct ds, k; [congruence|congruence|lia|discriminate].
Qed.

(* the text of P significant digits m at exponent x, in either layout, denotes m * 10^(x-P+1) with its sign *)
Lemma gen_body_reads (neg : bool) m x prec k : (1 <= prec)%nat -> pow10 (prec - 1) <= m < pow10 prec ->
  exists z, (parse_dec_chars false (repeat sp k ++ gen_body neg m x prec) = Some z \/
             parse_sci_chars (repeat sp k ++ gen_body neg m x prec) = Some z) /\
            (z == (if neg then -(1) else 1) * (inject_Z m * Qpow10 (x - Z.of_nat prec + 1)))%Q.
Proof.
  intros Hp [M1 M2]. destruct (fixdigs_spec prec m) as (F1 & F2 & F3).
  rewrite Z.mod_small in F2 by (pose proof (pow10_pos (prec - 1)); lia).
  unfold gen_body. set (ds := fixdigs prec m) in *.
  destruct ((x <? -4) || (Z.of_nat prec <=? x)) eqn:Br.
  - (* exponent form: d.ddd without trailing zeros *)
    destruct ds as [|d r]; [simpl in F1; lia|]. assert (Lr : length r = (prec - 1)%nat) by (simpl in F1; lia).
    pose proof (frac_strip [d] r) as FS. cbn [app] in FS.
    eexists. split.
    + right. apply parse_sci_generic; [exact (Forall_inv F3)|exact (strip0_digits r (Forall_inv_tail F3))].
    + rewrite <- Qmult_assoc, FS, F2, Lr, sci_digits_value.
      replace (x - Z.of_nat (prec - 1)) with (x - Z.of_nat prec + 1) by lia. reflexivity.
  - (* positional *)
    apply orb_false_iff in Br. destruct Br as [_ Br2]. apply Z.leb_gt in Br2.
    assert (NE : ds <> []) by (intros E; rewrite E in F1; simpl in F1; lia).
    pose proof (positional_spec ds x F3 NE ltac:(rewrite F1; exact Br2)) as PS.
    destruct (positional ds x) as [ip fp]. destruct PS as (Fi & Ni & Ff & Val & Len).
    eexists. split.
    + left. apply parse_body_plain; [exact Fi|exact Ni|exact (strip0_digits fp Ff)].
    + rewrite frac_strip, Qdiv_pow10, Val, Len, F2, F1.
      replace (- (Z.of_nat prec - x - 1)) with (x - Z.of_nat prec + 1) by lia. reflexivity.
Qed.

(* format(q, 'w.pg') for q <> 0 (P = max p 1 significant digits m of q at exponent x, trailing zeros removed, positional for
   -4 <= x < P and exponent form otherwise) reads back - as a plain decimal or as d.ddde+xx - as m * 10^(x-P+1) with
   the sign of q *)
Lemma fmt_g_reads q w p m x : ~ (q == 0)%Q ->
  let prec := match p with O => 1%nat | _ => p end in
  sig_round q prec = (m, x) ->
  exists z, (parse_dec (fmt_g (Fin q) w p) = Some z \/ parse_sci (fmt_g (Fin q) w p) = Some z) /\
            (z == (if qneg q then -(1) else 1) * (inject_Z m * Qpow10 (x - Z.of_nat prec + 1)))%Q.
Proof.
  intros Hq prec SR. assert (Hp : (1 <= prec)%nat) by (unfold prec; destruct p; lia).
  unfold parse_dec, parse_sci, fmt_g, chars. rewrite list_ascii_of_string_of_list_ascii.
  unfold fmt_g_chars, lpad. fold prec. rewrite SR.
  destruct (Qeq_bool q 0) eqn:E0; [apply Qeq_bool_iff in E0; contradiction|].
  apply gen_body_reads; [exact Hp|]. apply (sig_round_half_ulp q prec Hq Hp m x SR).
Qed.
