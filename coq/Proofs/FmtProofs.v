(* Proofs/FmtProofs.v - facts about the formatting model Model/Fmt.v:
   half-even rounding is within half a unit of the last displayed place, and the text produced for
   '{:w.pf}' reads back as exactly that rounded decimal, for every rational, width and precision. *)
From Coq Require Import String Ascii QArith Qabs Qround ZArith List Bool Lia Lqa.
From Verif Require Import Model.Fmt.
Import ListNotations.
Open Scope Z_scope.

Lemma round_half_even_bound q : (Qabs (inject_Z (round_half_even q) - q) <= 1#2)%Q.
Proof.
  unfold round_half_even.
  pose proof (Qfloor_le q) as H1. pose proof (Qlt_floor q) as H2.
  rewrite inject_Z_plus in H2. change (inject_Z 1) with 1%Q in H2.
  destruct (Qcompare_spec (q - inject_Z (Qfloor q)) (1#2)) as [E|L|G].
  - destruct (Z.even (Qfloor q)); [|rewrite inject_Z_plus; change (inject_Z 1) with 1%Q];
      apply Qabs_Qle_condition; split; lra.
  - apply Qabs_Qle_condition; split; lra.
  - rewrite inject_Z_plus; change (inject_Z 1) with 1%Q. apply Qabs_Qle_condition; split; lra.
Qed.

(* an integer on one side of q stays on that side of the rounded q: two integers less than 1 apart are in order *)
Lemma round_half_even_ge z q : (inject_Z z <= q)%Q -> z <= round_half_even q.
Proof.
  intros H. pose proof (round_half_even_bound q) as B. apply Qabs_Qle_condition in B.
  apply Z.lt_succ_r. rewrite Zlt_Qlt. unfold Z.succ. rewrite inject_Z_plus. change (inject_Z 1) with 1%Q. lra.
Qed.

Lemma round_half_even_le z q : (q <= inject_Z z)%Q -> round_half_even q <= z.
Proof.
  intros H. pose proof (round_half_even_bound q) as B. apply Qabs_Qle_condition in B.
  apply Z.lt_succ_r. rewrite Zlt_Qlt. unfold Z.succ. rewrite inject_Z_plus. change (inject_Z 1) with 1%Q. lra.
Qed.

Lemma round_half_even_Z z : round_half_even (inject_Z z) = z.
Proof. apply Z.le_antisymm; [apply round_half_even_le|apply round_half_even_ge]; apply Qle_refl. Qed.

(* rounding at the scale s and going back by u = 1/s: within half a unit u of the value *)
Lemma round_scaled_close a s u : (0 < u)%Q -> (s * u == 1)%Q ->
  (Qabs (inject_Z (round_half_even (a * s)) * u - a) <= (1#2) * u)%Q.
Proof.
  intros Pu E. pose proof (round_half_even_bound (a * s)) as B.
  set (r := inject_Z (round_half_even (a * s))) in *.
  assert (Ea : (a * s * u == a)%Q) by (rewrite <- Qmult_assoc, E; ring).
  apply Qabs_Qle_condition in B. apply Qabs_Qle_condition. split; nra.
Qed.

Lemma pow10_pos p : 0 < pow10 p.
Proof. unfold pow10. apply Z.pow_pos_nonneg; lia. Qed.

Lemma pow10_Qpos p : (0 < inject_Z (pow10 p))%Q.
Proof. change 0%Q with (inject_Z 0). rewrite <- Zlt_Qlt. apply pow10_pos. Qed.

Lemma pow10_S p : pow10 (S p) = 10 * pow10 p.
Proof. unfold pow10. rewrite Nat2Z.inj_succ, Z.pow_succ_r; lia. Qed.

Lemma scaled_abs_nonneg q p : 0 <= scaled_abs q p.
Proof.
  apply (round_half_even_ge 0), Qmult_le_0_compat; [apply Qabs_nonneg|apply Qlt_le_weak, pow10_Qpos].
Qed.

Lemma qneg_spec q : qneg q = true <-> (q < 0)%Q.
Proof. unfold qneg, Qlt. simpl. rewrite Z.ltb_lt. lia. Qed.

Lemma Qabs_of_sign q : (Qabs q == (if qneg q then -(1) else 1) * q)%Q.
Proof.
  destruct (qneg q) eqn:E.
  - apply qneg_spec in E. rewrite Qabs_neg by lra. ring.
  - assert (~ (q < 0)%Q) by (rewrite <- qneg_spec; congruence).
    rewrite Qabs_pos by lra. ring.
Qed.

Lemma Qabs_signed q z : (Qabs ((if qneg q then -(1) else 1) * z - q) == Qabs (z - Qabs q))%Q.
Proof.
  rewrite (Qabs_of_sign q). destruct (qneg q).
  - rewrite <- Qabs_opp. apply Qabs_wd. ring.
  - apply Qabs_wd. ring.
Qed.

(* the displayed decimal is within half a unit of the last displayed place of the exact value *)
Theorem shown_within_half_ulp q p : (Qabs (shown q p - q) <= (1#2) / inject_Z (pow10 p))%Q.
Proof.
  unfold shown, scaled_abs. rewrite Qabs_signed. pose proof (pow10_Qpos p) as Hp.
  apply round_scaled_close; [apply Qinv_lt_0_compat; exact Hp|apply Qmult_inv_r; lra].
Qed.

Definition digit (d : Z) : Prop := 0 <= d <= 9.

Lemma dval_fold acc l : fold_left (fun a d => a * 10 + d) l acc = acc * 10 ^ Z.of_nat (length l) + dval l.
Proof.
  unfold dval. revert acc. induction l as [|x l IH]; intros acc.
  - simpl. lia.
  - cbn [fold_left]. rewrite (IH (acc * 10 + x)), (IH (0 * 10 + x)).
    change (length (x :: l)) with (S (length l)). rewrite Nat2Z.inj_succ, Z.pow_succ_r by lia. lia.
Qed.

Lemma dval_app a b : dval (a ++ b) = dval a * 10 ^ Z.of_nat (length b) + dval b.
Proof. unfold dval at 1. rewrite fold_left_app. fold (dval a). apply dval_fold. Qed.

Lemma dval_snoc a d : dval (a ++ [d]) = dval a * 10 + d.
Proof. rewrite dval_app. simpl. unfold dval at 2. simpl. lia. Qed.

Lemma dval_cons0 ds : dval (0 :: ds) = dval ds.
Proof. exact (dval_fold 0 ds). Qed.

Lemma dval_bounds ds : Forall digit ds -> 0 <= dval ds < 10 ^ Z.of_nat (length ds).
Proof.
  induction ds as [|d ds IH] using rev_ind; intros H.
  - simpl. unfold dval. simpl. lia.
  - apply Forall_app in H. destruct H as [H1 H2]. apply Forall_inv in H2. specialize (IH H1).
    rewrite dval_snoc, app_length, Nat.add_1_r, Nat2Z.inj_succ, Z.pow_succ_r by lia. unfold digit in H2. lia.
Qed.

Lemma div10_step n : digit (n mod 10) /\ n / 10 * 10 + n mod 10 = n.
Proof. pose proof (Z.div_mod n 10) as Dm. pose proof (Z.mod_pos_bound n 10) as Mb. unfold digit. lia. Qed.

(* the digits of n, their value, and no leading zero: a number of k digits is at least 10^(k-1) *)
Definition digits_of (n : Z) (ds : list Z) : Prop :=
  dval ds = n /\ Forall digit ds /\ ds <> [] /\ (1 <= n -> 10 ^ Z.of_nat (length ds) <= 10 * n).

Lemma digits_of_one n : 0 <= n < 10 -> digits_of n [n].
Proof.
  intros H. split; [reflexivity|]. split; [|split].
  - constructor; [unfold digit; lia|constructor].
  - discriminate.
  - intros H1. change (10 ^ Z.of_nat (length [n])) with 10. lia.
Qed.

Lemma digits_of_snoc n ds : 10 <= n -> digits_of (n / 10) ds -> digits_of n (ds ++ [n mod 10]).
Proof.
  intros G (V & F & N & Lo). destruct (div10_step n) as (R & Dm). split; [|split; [|split]].
  - rewrite dval_snoc, V. exact Dm.
  - apply Forall_app. split; [exact F|constructor; [exact R|constructor]].
  - destruct ds; discriminate.
  - intros _. unfold digit in R. rewrite app_length, Nat.add_1_r, Nat2Z.inj_succ, Z.pow_succ_r by apply Nat2Z.is_nonneg. lia.
Qed.

Lemma digs_acc_spec f : forall n acc, 0 <= n < 10 ^ Z.of_nat (S f) ->
  exists ds, digs_acc (S f) n acc = ds ++ acc /\ digits_of n ds.
Proof.
  induction f as [|f IH]; intros n acc Hn; cbn [digs_acc]; destruct (Z.ltb_spec n 10) as [L|G].
  - exists [n]. split; [reflexivity|apply digits_of_one; lia].
  - change (10 ^ Z.of_nat 1) with 10 in Hn. lia.
  - exists [n]. split; [reflexivity|apply digits_of_one; lia].
  - rewrite Nat2Z.inj_succ, Z.pow_succ_r in Hn by apply Nat2Z.is_nonneg.
    destruct (IH (n / 10) (n mod 10 :: acc)) as (ds & E & D).
    { split; [apply Z.div_pos; lia|apply Z.div_lt_upper_bound; lia]. }
    exists (ds ++ [n mod 10]). split; [rewrite <- app_assoc; exact E|exact (digits_of_snoc n ds G D)].
Qed.

Lemma zdigits_fuel n : 0 <= n -> 0 <= n < 10 ^ Z.of_nat (S (Z.to_nat (Z.log2 n))).
Proof.
  intros Hn. split; [exact Hn|].
  destruct (Z.eq_dec n 0) as [->|Hz]; [reflexivity|].
  pose proof (Z.log2_spec n ltac:(lia)) as [_ L]. pose proof (Z.log2_nonneg n).
  rewrite Nat2Z.inj_succ, Z2Nat.id by lia.
  eapply Z.lt_le_trans; [exact L|]. apply Z.pow_le_mono_l. lia.
Qed.

Lemma zdigits_spec n : 0 <= n -> dval (zdigits n) = n /\ Forall digit (zdigits n) /\ zdigits n <> [].
Proof.
  intros Hn. unfold zdigits.
  destruct (digs_acc_spec _ n [] (zdigits_fuel n Hn)) as (ds & E1 & E2 & E3 & E4 & _).
  rewrite app_nil_r in E1. rewrite E1. auto.
Qed.

Lemma ndig_bounds n : 1 <= n -> 1 <= ndig n /\ 10 ^ (ndig n - 1) <= n < 10 ^ ndig n.
Proof.
  intros Hn. unfold ndig, zdigits.
  destruct (digs_acc_spec _ n [] (zdigits_fuel n ltac:(lia))) as (ds & E1 & E2 & E3 & E4 & E5).
  rewrite app_nil_r in E1. rewrite E1. pose proof (dval_bounds ds E3) as B. specialize (E5 Hn).
  assert (L : 1 <= Z.of_nat (length ds)) by (destruct ds; [congruence|simpl; lia]).
  replace (Z.of_nat (length ds)) with (Z.succ (Z.of_nat (length ds) - 1)) in E5 by lia.
  rewrite Z.pow_succ_r in E5 by lia. lia.
Qed.

Lemma fixdigs_acc_spec p : forall r acc,
  exists ds, fixdigs_acc p r acc = ds ++ acc /\ length ds = p /\ dval ds = r mod pow10 p /\ Forall digit ds.
Proof.
  induction p as [|p IH]; intros r acc.
  - exists []. simpl. repeat split. unfold pow10. simpl. rewrite Z.mod_1_r. reflexivity. constructor.
  - cbn [fixdigs_acc]. destruct (IH (r / 10) (r mod 10 :: acc)) as (ds & E1 & E2 & E3 & E4).
    exists (ds ++ [r mod 10]). split; [rewrite E1, <- app_assoc; reflexivity|].
    split; [rewrite app_length; simpl; lia|]. split.
    + rewrite dval_snoc, E3, pow10_S. pose proof (pow10_pos p).
      rewrite (Z.rem_mul_r r 10 (pow10 p)) by lia. lia.
    + apply Forall_app. split; [exact E4|]. constructor; [apply div10_step|constructor].
Qed.

Lemma fixdigs_spec p r : length (fixdigs p r) = p /\ dval (fixdigs p r) = r mod pow10 p /\ Forall digit (fixdigs p r).
Proof.
  unfold fixdigs. destruct (fixdigs_acc_spec p r []) as (ds & E1 & E2 & E3 & E4).
  rewrite app_nil_r in E1. rewrite E1. auto.
Qed.

Lemma digit_cases d : digit d -> d = 0 \/ d = 1 \/ d = 2 \/ d = 3 \/ d = 4 \/ d = 5 \/ d = 6 \/ d = 7 \/ d = 8 \/ d = 9.
Proof. unfold digit. lia. Qed.

Lemma digit_char_facts d : digit d ->
  is_digit (digit_char d) = true /\ digit_val (digit_char d) = d /\
  Ascii.eqb (digit_char d) sp = false /\ Ascii.eqb (digit_char d) "-"%char = false.
Proof.
  intros H. apply digit_cases in H.
  repeat (destruct H as [->|H]; [vm_compute; auto|]). subst. vm_compute. auto.
Qed.

Local Arguments digit_char : simpl never.
Local Arguments is_digit : simpl never.
Local Arguments digit_val : simpl never.
Local Opaque digit_char.

Lemma span_digits_dchars c ds rest : Forall digit ds ->
  (match rest with [] => True | x :: _ => is_digit x = false /\ (c && Ascii.eqb x ","%char = false) end) ->
  span_digits c (dchars ds ++ rest) = (ds, rest).
Proof.
  intros H R. induction H as [|d ds Hd _ IH].
  - cbn [dchars map app]. destruct rest as [|x r]; [reflexivity|]. cbn [span_digits]. destruct R as [R1 R2]. rewrite R1, R2. reflexivity.
  - destruct (digit_char_facts d Hd) as (A & B & _).
    change (dchars (d :: ds) ++ rest) with (digit_char d :: (dchars ds ++ rest)).
    cbn [span_digits]. rewrite A, IH, B. reflexivity.
Qed.

Lemma skip_spaces_repeat k l : skip_spaces (repeat sp k ++ l) = skip_spaces l.
Proof. induction k; simpl; [reflexivity|exact IHk]. Qed.

Lemma skip_spaces_id c l : Ascii.eqb c sp = false -> skip_spaces (c :: l) = c :: l.
Proof. intros H. simpl. rewrite H. reflexivity. Qed.

(* both readers begin alike: spaces, then an optional '-' *)
Definition read_sign (s : list ascii) : bool * list ascii :=
  match s with c :: r => if Ascii.eqb c "-"%char then (true, r) else (false, s) | [] => (false, []) end.

Lemma read_sign_spec k (neg : bool) c r : Ascii.eqb c sp = false -> Ascii.eqb c "-"%char = false ->
  read_sign (skip_spaces (repeat sp k ++ (if neg then ["-"%char] else []) ++ c :: r)) = (neg, c :: r).
Proof.
  intros Nsp Nminus. rewrite skip_spaces_repeat. destruct neg; cbn [app].
  - rewrite skip_spaces_id by reflexivity. reflexivity.
  - rewrite skip_spaces_id by exact Nsp. unfold read_sign. rewrite Nminus. reflexivity.
Qed.

Lemma span_digits_dchars_nil c ds : Forall digit ds -> span_digits c (dchars ds) = (ds, []).
Proof. intros F. rewrite <- (app_nil_r (dchars ds)). apply span_digits_dchars; [exact F|exact I]. Qed.

(* l' is l with commas inserted *)
Inductive commaed : list ascii -> list ascii -> Prop :=
| cm_nil : commaed [] []
| cm_keep c l l' : commaed l l' -> commaed (c :: l) (c :: l')
| cm_comma l l' : commaed l l' -> commaed l (","%char :: l').

Lemma commaed_app a a' b b' : commaed a a' -> commaed b b' -> commaed (a ++ b) (a' ++ b').
Proof. intros H. induction H; intros Hb; simpl; [exact Hb|constructor; auto|constructor; auto]. Qed.

Lemma commaed_rev l l' : commaed l l' -> commaed (rev l) (rev l').
Proof.
  intros H. induction H; simpl.
  - constructor.
  - apply commaed_app; [exact IHcommaed|repeat constructor].
  - rewrite <- (app_nil_r (rev l)). apply commaed_app; [exact IHcommaed|repeat constructor].
Qed.

Lemma commaed_group3_rev l : forall k, commaed l (group3_rev l k).
Proof.
  induction l as [|d r IH]; intros k; simpl; [constructor|].
  destruct k as [|[|[|k]]]; try (constructor; apply IH).
  destruct r; constructor; [apply IH|constructor; apply IH].
Qed.

Lemma commaed_group3 l : commaed l (group3 l).
Proof.
  unfold group3. rewrite <- (rev_involutive l) at 1. apply commaed_rev, commaed_group3_rev.
Qed.

Lemma commaed_refl l : commaed l l.
Proof. induction l; constructor; auto. Qed.

Lemma span_digits_commaed l l' : commaed l l' -> forall ds rest, l = dchars ds -> Forall digit ds ->
  (match rest with [] => True | x :: _ => is_digit x = false /\ Ascii.eqb x ","%char = false end) ->
  span_digits true (l' ++ rest) = (ds, rest).
Proof.
  intros H. induction H as [|c l l' _ IH|l l' _ IH]; intros ds rest E F R.
  - destruct ds; [|discriminate]. apply (span_digits_dchars true []); [exact F|destruct rest; exact R].
  - destruct ds as [|d ds]; [discriminate|]. injection E as -> ->.
    destruct (digit_char_facts d (Forall_inv F)) as (A & B & _).
    cbn [app span_digits]. rewrite A, (IH ds rest eq_refl (Forall_inv_tail F) R), B. reflexivity.
  - cbn [app span_digits]. change (is_digit ","%char) with false. cbn [andb Ascii.eqb Bool.eqb]. apply IH; assumption.
Qed.

Lemma commaed_head l l' : commaed l l' -> forall ds, l = dchars ds -> Forall digit ds -> ds <> [] ->
  exists c r, l' = c :: r /\ Ascii.eqb c sp = false /\ Ascii.eqb c "-"%char = false.
Proof.
  intros [|c l0 l0' _|l0 l0' _] ds E F N.
  - destruct ds; [congruence|discriminate].
  - destruct ds as [|d ds]; [discriminate|]. injection E as -> _.
    destruct (digit_char_facts d (Forall_inv F)) as (_ & _ & A & B). eauto.
  - exists ","%char, l0'. auto.
Qed.

(* spaces, sign, the integer digits ip written as X, optional fraction fp.  X is ip with commas inserted, and with
   none unless the reader skips them *)
Lemma parse_body_generic (comma neg : bool) X ip fp k :
  Forall digit ip -> ip <> [] -> Forall digit fp ->
  commaed (dchars ip) X -> (comma = false -> X = dchars ip) ->
  parse_dec_chars comma (repeat sp k ++ (if neg then ["-"%char] else []) ++ X
                         ++ match fp with [] => [] | f :: t => "."%char :: dchars (f :: t) end)
  = Some ((if neg then -(1) else 1) * (inject_Z (dval (ip ++ fp)) / inject_Z (pow10 (length fp))))%Q.
Proof.
  intros Fi Ni Ff CM Plain.
  destruct (commaed_head _ _ CM ip eq_refl Fi Ni) as (c0 & r0 & -> & Nsp & Nminus).
  set (tail := match fp with [] => [] | f :: t => "."%char :: dchars (f :: t) end).
  (* the integer digits end where the fraction begins: at the end of the text or at '.' *)
  assert (Etail : span_digits comma ((c0 :: r0) ++ tail) = (ip, tail)).
  { assert (R : match tail with [] => True | x :: _ => is_digit x = false /\ Ascii.eqb x ","%char = false end)
      by (unfold tail; destruct fp; simpl; auto).
    destruct comma.
    - exact (span_digits_commaed _ _ CM ip tail eq_refl Fi R).
    - rewrite (Plain eq_refl). apply span_digits_dchars; [exact Fi|destruct tail; tauto]. }
  destruct ip as [|d ip']; [congruence|]. cbn [app] in *.
  set (s := repeat sp k ++ _). unfold parse_dec_chars. fold (read_sign (skip_spaces s)).
  unfold s. rewrite read_sign_spec, Etail by assumption. unfold tail. destruct fp as [|f t]; [reflexivity|].
  cbn [Ascii.eqb Bool.eqb]. rewrite (span_digits_dchars_nil false (f :: t) Ff). reflexivity.
Qed.

Lemma parse_body_plain comma (neg : bool) ip fp k : Forall digit ip -> ip <> [] -> Forall digit fp ->
  parse_dec_chars comma (repeat sp k ++ (if neg then ["-"%char] else []) ++ dchars ip
                         ++ match fp with [] => [] | f :: t => "."%char :: dchars (f :: t) end)
  = Some ((if neg then -(1) else 1) * (inject_Z (dval (ip ++ fp)) / inject_Z (pow10 (length fp))))%Q.
Proof. intros Fi Ni Ff. apply parse_body_generic; auto. apply commaed_refl. Qed.

(* the text of a fixed field, with or without separators, denotes s / 10^p with its sign *)
Lemma fixed_body_reads comma neg s p k : 0 <= s ->
  parse_dec_chars comma (repeat sp k ++ fixed_body comma neg s p)
  = Some ((if neg then -(1) else 1) * (inject_Z s / inject_Z (pow10 p)))%Q.
Proof.
  intros Hs. pose proof (pow10_pos p) as Hp.
  destruct (zdigits_spec (s / pow10 p)) as (I1 & I2 & I3); [apply Z.div_pos; lia|].
  destruct (fixdigs_spec p (s mod pow10 p)) as (F1 & F2 & F3). rewrite Z.mod_mod in F2 by lia.
  unfold fixed_body. set (ip := zdigits (s / pow10 p)) in *. set (fp := fixdigs p (s mod pow10 p)) in *.
  (* s = (s / 10^p) * 10^p + s mod 10^p, digit by digit *)
  assert (V : dval (ip ++ fp) = s).
  { rewrite dval_app, I1, F1, F2. fold (pow10 p). pose proof (Z.div_mod s (pow10 p)). lia. }
  replace (match p with O => [] | S _ => "."%char :: dchars fp end)
    with (match fp with [] => [] | f :: t => "."%char :: dchars (f :: t) end) by (destruct p, fp; try discriminate; reflexivity).
  rewrite <- V, <- F1.
  apply parse_body_generic; auto; destruct comma; try discriminate; auto using commaed_group3, commaed_refl.
Qed.

Lemma fmt_f_chars_reads comma q w p : parse_dec_chars comma (fmt_f_chars comma (Fin q) w p) = Some (shown q p).
Proof. unfold fmt_f_chars, lpad, shown. apply fixed_body_reads, scaled_abs_nonneg. Qed.

Theorem fmt_f_parse_back q w p : parse_dec (fmt_f (Fin q) w p) = Some (shown q p).
Proof. unfold parse_dec, fmt_f, chars. rewrite list_ascii_of_string_of_list_ascii. apply fmt_f_chars_reads. Qed.

(* a whole number under '.0f' is printed exactly (the year labels of the tables) *)
Lemma scaled_abs_nat n : scaled_abs (inject_Z (Z.of_nat n)) 0 = Z.of_nat n.
Proof.
  unfold scaled_abs.
  change (Qabs (inject_Z (Z.of_nat n)) * inject_Z (pow10 0))%Q with (inject_Z (Z.abs (Z.of_nat n) * 1)).
  rewrite Z.mul_1_r, Z.abs_eq by lia. apply round_half_even_Z.
Qed.

Lemma shown_nat n : (shown (inject_Z (Z.of_nat n)) 0 == inject_Z (Z.of_nat n))%Q.
Proof.
  unfold shown. rewrite scaled_abs_nat.
  assert (E : qneg (inject_Z (Z.of_nat n)) = false).
  { unfold qneg. simpl. apply Z.ltb_ge. lia. }
  rewrite E. change (inject_Z (pow10 0)) with 1%Q. field.
Qed.

(* the field is never narrower than the requested width and is never truncated *)
Lemma lpad_length w s : (w <= length (lpad w s))%nat /\ (length s <= length (lpad w s))%nat.
Proof. unfold lpad. rewrite app_length, repeat_length. lia. Qed.
