(* Proofs/FmtSciProofs.v - the value of a '{:w.pe}' field: powers of ten as rationals, the decimal exponent
   floor(log10 |q|) computed from digit counts is correct, rounding to n significant digits yields an n-digit integer
   within half a unit, and the text (mantissa digits, 'e', sign, at least two exponent digits) reads back as exactly
   that decimal. *)
From Coq Require Import String Ascii QArith Qabs Qround Qpower ZArith List Bool Lia Lqa.
From Verif Require Import Model.Fmt Proofs.FmtProofs.
Import ListNotations.
Open Scope Z_scope.

Lemma Qpow10_nonneg_exp z : 0 <= z -> Qpow10 z = inject_Z (10 ^ z).
Proof. intros H. unfold Qpow10. destruct (Z.ltb_spec z 0); [lia|reflexivity]. Qed.

Lemma Qpow10_neg_exp z : z < 0 -> Qpow10 z = 1 # Z.to_pos (10 ^ (- z)).
Proof. intros H. unfold Qpow10. destruct (Z.ltb_spec z 0); [reflexivity|lia]. Qed.

(* Qpow10 is the power of the rational 10; its algebra is that of Qpower *)
Lemma Qpow10_Qpower z : (Qpow10 z == 10 ^ z)%Q.
Proof.
  destruct (Z_lt_le_dec z 0) as [N|P].
  - rewrite Qpow10_neg_exp by exact N. rewrite <- (Z.opp_involutive z) at 2.
    rewrite Qpower_opp, <- (Zpower_Qpower 10) by lia.
    rewrite <- (Z2Pos.id (10 ^ - z)) at 2 by (apply Z.pow_pos_nonneg; lia). reflexivity.
  - rewrite Qpow10_nonneg_exp by exact P. apply (Zpower_Qpower 10). exact P.
Qed.

Lemma Qpow10_pos z : (0 < Qpow10 z)%Q.
Proof. rewrite Qpow10_Qpower. apply Qpower_0_lt. reflexivity. Qed.

Lemma Qpow10_add a b : (Qpow10 (a + b) == Qpow10 a * Qpow10 b)%Q.
Proof. rewrite !Qpow10_Qpower. apply Qpower_plus. discriminate. Qed.

Lemma Qpow10_inv z : (Qpow10 (- z) == / Qpow10 z)%Q.
Proof. rewrite !Qpow10_Qpower. apply Qpower_opp. Qed.

Lemma Qpow10_mono a b : a <= b -> (Qpow10 a <= Qpow10 b)%Q.
Proof. intros H. rewrite !Qpow10_Qpower. apply Qpower_le_compat_l; [exact H|discriminate]. Qed.

Lemma Qpow10_split a b c : a = b + c -> (Qpow10 a == Qpow10 b * Qpow10 c)%Q.
Proof. intros ->. apply Qpow10_add. Qed.

Lemma pow10_Qpow10 n : inject_Z (pow10 n) = Qpow10 (Z.of_nat n).
Proof. unfold pow10. rewrite Qpow10_nonneg_exp by lia. reflexivity. Qed.

Lemma Qmake_div n d : (n # d == inject_Z n / inject_Z (Zpos d))%Q.
Proof. apply Qmake_Qdiv. Qed.

Lemma ndig_Qbounds n : 1 <= n -> (Qpow10 (ndig n - 1) <= inject_Z n /\ inject_Z n < Qpow10 (ndig n))%Q.
Proof.
  intros Hn. destruct (ndig_bounds n Hn) as (L & B1 & B2).
  rewrite !Qpow10_nonneg_exp, <- Zle_Qle, <- Zlt_Qlt by lia. auto.
Qed.

(* a positive rational lies within a decade of the difference of the digit counts of its numerator and denominator:
   10^(ln-1) <= N < 10^ln and 10^(ld-1) <= D < 10^ld give 10^(ln-ld-1) < N/D < 10^(ln-ld+1) *)
Lemma ndig_ratio_decade a : (0 < a)%Q ->
  let d := ndig (Qnum a) - ndig (Zpos (Qden a)) in (Qpow10 (d - 1) < a /\ a < Qpow10 (d + 1))%Q.
Proof.
  intros Ha. set (N := Qnum a). set (D := Zpos (Qden a)).
  assert (HN : 1 <= N) by (unfold N; unfold Qlt in Ha; simpl in Ha; lia).
  destruct (ndig_Qbounds N HN) as (Q2 & Q1). destruct (ndig_Qbounds D) as (Q4 & Q3); [unfold D; lia|].
  set (ln := ndig N) in *. set (ld := ndig D) in *. cbv zeta.
  assert (PD : (0 < inject_Z D)%Q) by (change 0%Q with (inject_Z 0); rewrite <- Zlt_Qlt; unfold D; lia).
  assert (EN : (a * inject_Z D == inject_Z N)%Q).
  { setoid_replace a with (inject_Z N / inject_Z D)%Q at 1 by (unfold N, D; destruct a; apply Qmake_div). field. lra. }
  split.
  - rewrite (Qpow10_split (ln - ld - 1) (ln - 1) (- ld)), Qpow10_inv by lia.
    apply Qlt_shift_div_r; [apply Qpow10_pos|]. apply Qle_lt_trans with (a * inject_Z D)%Q; [rewrite EN; exact Q2|].
    apply Qmult_lt_l; assumption.
  - rewrite (Qpow10_split (ln - ld + 1) ln (- (ld - 1))), Qpow10_inv by lia.
    apply Qlt_shift_div_l; [apply Qpow10_pos|]. apply Qle_lt_trans with (a * inject_Z D)%Q; [|rewrite EN; exact Q1].
    apply Qmult_le_l; assumption.
Qed.

(* floor(log10 |q|): one comparison with 10^d decides between d - 1 and d *)
Theorem ilog10_spec q : ~ (q == 0)%Q -> (Qpow10 (ilog10 q) <= Qabs q /\ Qabs q < Qpow10 (ilog10 q + 1))%Q.
Proof.
  intros Hq. assert (Ha : (0 < Qabs q)%Q).
  { destruct (Qlt_le_dec 0 (Qabs q)) as [L|L]; [exact L|]. exfalso. apply Hq. apply Qabs_Qle_condition in L. lra. }
  pose proof (ndig_ratio_decade _ Ha) as LU. unfold ilog10. cbv zeta in LU |- *.
  set (d := ndig _ - ndig _) in *. destruct LU as [L U]. destruct (Qle_bool (Qpow10 d) (Qabs q)) eqn:C.
  - apply Qle_bool_iff in C. split; [exact C|exact U].
  - assert (C' : ~ (Qpow10 d <= Qabs q)%Q) by (rewrite <- Qle_bool_iff; congruence).
    replace (d - 1 + 1) with d by lia. split; lra.
Qed.

Lemma sig_round_exp q n m x : sig_round q n = (m, x) -> ilog10 q <= x <= ilog10 q + 1.
Proof. unfold sig_round. destruct (_ =? _); intros [= _ <-]; lia. Qed.

(* |q| rounded to n significant digits: an n-digit integer m and the exponent x of its first digit; m at x is within
   half a unit of the n-th digit counted from the first digit of q (a carry to 10^n is kept as 10^(n-1) one exponent up) *)
Lemma sig_round_close q n : ~ (q == 0)%Q -> (1 <= n)%nat -> forall m x, sig_round q n = (m, x) ->
  pow10 (n - 1) <= m < pow10 n /\
  (Qabs (inject_Z m * Qpow10 (x - Z.of_nat n + 1) - Qabs q) <= (1#2) * Qpow10 (ilog10 q - Z.of_nat n + 1))%Q.
Proof.
  intros Hq Hn m x. unfold sig_round.
  destruct (ilog10_spec q Hq) as [L U]. set (x0 := ilog10 q) in *.
  set (s := Qpow10 (Z.of_nat n - 1 - x0)). set (u := Qpow10 (x0 - Z.of_nat n + 1)).
  assert (Ps : (0 < s)%Q) by apply Qpow10_pos. assert (Pu : (0 < u)%Q) by apply Qpow10_pos.
  assert (Esu : (s * u == 1)%Q) by (symmetry; apply (Qpow10_split 0); lia).
  pose proof (round_scaled_close (Qabs q) s u Pu Esu) as Close.
  set (m0 := round_half_even (Qabs q * s)) in *.
  (* 10^(n-1) <= |q| * s < 10^n, so the rounded integer lies between the two powers *)
  assert (M1 : pow10 (n - 1) <= m0).
  { apply round_half_even_ge. rewrite pow10_Qpow10, (Qpow10_split (Z.of_nat (n - 1)) x0 (Z.of_nat n - 1 - x0)) by lia.
    fold s. apply Qmult_le_compat_r; [exact L|apply Qlt_le_weak, Ps]. }
  assert (M2 : m0 <= pow10 n).
  { apply round_half_even_le. rewrite pow10_Qpow10, (Qpow10_split (Z.of_nat n) (x0 + 1) (Z.of_nat n - 1 - x0)) by lia.
    fold s. apply Qlt_le_weak, Qmult_lt_compat_r; [exact Ps|exact U]. }
  destruct (Z.eqb_spec m0 (pow10 n)) as [C|C]; intros [= <- <-].
  - split; [split; [lia|apply Z.pow_lt_mono_r; lia]|].
    setoid_replace (inject_Z (pow10 (n - 1)) * Qpow10 (x0 + 1 - Z.of_nat n + 1))%Q with (inject_Z m0 * u)%Q; [exact Close|].
    rewrite C, !pow10_Qpow10. unfold u. rewrite <- !Qpow10_add.
    replace (Z.of_nat (n - 1) + (x0 + 1 - Z.of_nat n + 1)) with (Z.of_nat n + (x0 - Z.of_nat n + 1)) by lia. reflexivity.
  - split; [lia|exact Close].
Qed.

(* the same in the unit of the last digit of m at x, which after a carry is ten times the unit above *)
Theorem sig_round_half_ulp q n : ~ (q == 0)%Q -> (1 <= n)%nat -> forall m x, sig_round q n = (m, x) ->
  pow10 (n - 1) <= m < pow10 n /\
  (Qabs (inject_Z m * Qpow10 (x - Z.of_nat n + 1) - Qabs q) <= (1#2) * Qpow10 (x - Z.of_nat n + 1))%Q.
Proof.
  intros Hq Hn m x SR. destruct (sig_round_close q n Hq Hn m x SR) as (M & C). split; [exact M|].
  eapply Qle_trans; [exact C|]. apply Qmult_le_l; [reflexivity|]. apply Qpow10_mono.
  pose proof (sig_round_exp q n m x SR). lia.
Qed.

Lemma Qdiv_pow10 m p : (inject_Z m / inject_Z (pow10 p) == inject_Z m * Qpow10 (- Z.of_nat p))%Q.
Proof. rewrite pow10_Qpow10, Qpow10_inv. reflexivity. Qed.

(* d.ddd (p digits after the point) times 10^x, in units of the last digit *)
Lemma sci_digits_value m x p : (inject_Z m / inject_Z (pow10 p) * Qpow10 x == inject_Z m * Qpow10 (x - Z.of_nat p))%Q.
Proof. rewrite Qdiv_pow10, (Qpow10_split (x - Z.of_nat p) (- Z.of_nat p) x) by lia. ring. Qed.

(* the two conclusions about the decimal z = +-(m * 10^(x-n+1)) a field shows for q *)
Lemma sig_value_bounds q n m x : ~ (q == 0)%Q -> (1 <= n)%nat -> sig_round q n = (m, x) ->
  forall z, (z == (if qneg q then -(1) else 1) * (inject_Z m * Qpow10 (x - Z.of_nat n + 1)))%Q ->
  (Qabs (z - q) <= (1#2) * Qpow10 (x - Z.of_nat n + 1))%Q /\ (Qpow10 x <= Qabs z /\ Qabs z < Qpow10 (x + 1))%Q.
Proof.
  intros Hq Hn SR z ->. destruct (sig_round_half_ulp q n Hq Hn m x SR) as ([M1 M2] & C).
  set (u := Qpow10 (x - Z.of_nat n + 1)) in *. assert (Pu : (0 < u)%Q) by apply Qpow10_pos.
  rewrite Qabs_signed. split; [exact C|].
  rewrite Zle_Qle in M1. rewrite Zlt_Qlt in M2. pose proof (pow10_Qpos (n - 1)) as Pp.
  assert (Ez : (Qabs ((if qneg q then -(1) else 1) * (inject_Z m * u)) == inject_Z m * u)%Q).
  { rewrite Qabs_Qmult, (Qabs_pos (inject_Z m * u)) by nra. destruct (qneg q); [rewrite Qabs_opp|]; apply Qmult_1_l. }
  rewrite Ez, (Qpow10_split x (Z.of_nat (n - 1)) (x - Z.of_nat n + 1)),
    (Qpow10_split (x + 1) (Z.of_nat n) (x - Z.of_nat n + 1)), <- !pow10_Qpow10 by lia.
  fold u. split; [apply Qmult_le_compat_r; lra|apply Qmult_lt_compat_r; assumption].
Qed.

Local Arguments digit_char : simpl never.
Local Arguments is_digit : simpl never.
Local Arguments digit_val : simpl never.
Local Opaque digit_char.

Lemma exp_chars_shape upper x : exists e sg xd,
  exp_chars upper x = e :: sg :: dchars xd /\
  (Ascii.eqb e "e"%char || Ascii.eqb e "E"%char = true) /\
  Forall digit xd /\ xd <> [] /\
  (Ascii.eqb sg "-"%char || Ascii.eqb sg "+"%char = true) /\
  (if Ascii.eqb sg "-"%char then - dval xd else dval xd) = x /\
  is_digit e = false.
Proof.
  unfold exp_chars.
  destruct (zdigits_spec (Z.abs x) ltac:(lia)) as (V & F & NE).
  set (ds := zdigits (Z.abs x)) in *.
  set (xd := if (length ds <? 2)%nat then 0 :: ds else ds).
  assert (Hx : Forall digit xd /\ dval xd = Z.abs x /\ xd <> []).
  { unfold xd. destruct (length ds <? 2)%nat; [|auto].
    rewrite dval_cons0. repeat split; [constructor; [unfold digit; lia|exact F]|exact V|discriminate]. }
  destruct Hx as (Fx & Vx & Nx).
  exists (if upper then "E"%char else "e"%char), (if x <? 0 then "-"%char else "+"%char), xd.
  repeat split; try assumption; try (destruct upper; reflexivity).
  - destruct (x <? 0); reflexivity.
  - rewrite Vx. destruct (Z.ltb_spec x 0); cbn [Ascii.eqb Bool.eqb]; lia.
Qed.

(* spaces, sign, one digit, optional '.' and fraction digits, exponent: the text denotes d.fff * 10^x *)
Lemma parse_sci_generic upper (neg : bool) d fp x k : digit d -> Forall digit fp ->
  parse_sci_chars (repeat sp k ++ (if neg then ["-"%char] else [])
                   ++ digit_char d :: match fp with [] => [] | f :: t => "."%char :: dchars (f :: t) end ++ exp_chars upper x)
  = Some ((if neg then -(1) else 1) * (inject_Z (dval (d :: fp)) / inject_Z (pow10 (length fp))) * Qpow10 x)%Q.
Proof.
  intros Hd Ff. destruct (digit_char_facts d Hd) as (_ & _ & Nsp & Nminus).
  destruct (exp_chars_shape upper x) as (e & sg & xd & -> & He & Fx & Nx & Hs & <- & Hde).
  set (tail := e :: sg :: dchars xd).
  assert (Ne : Ascii.eqb e "."%char = false).
  { destruct (orb_prop _ _ He) as [E|E]; apply Ascii.eqb_eq in E; subst; reflexivity. }
  destruct xd as [|x0 xd']; [congruence|].
  set (s := repeat sp k ++ _). unfold parse_sci_chars. fold (read_sign (skip_spaces s)).
  unfold s. rewrite read_sign_spec by assumption.
  change (digit_char d :: ?l) with (dchars [d] ++ l).
  rewrite (span_digits_dchars false [d]); [|constructor; [exact Hd|constructor]|destruct fp; unfold tail; cbn [app]; auto].
  destruct fp as [|f fp']; cbn [app].
  - unfold tail. rewrite Ne, He, (span_digits_dchars_nil false _ Fx), Hs. reflexivity.
  - cbn [Ascii.eqb Bool.eqb]. rewrite (span_digits_dchars false _ tail Ff) by (unfold tail; auto).
    unfold tail. rewrite He, (span_digits_dchars_nil false _ Fx), Hs. reflexivity.
Qed.

Lemma sci_body_reads upper neg m x p k : 0 <= m < pow10 (S p) ->
  parse_sci_chars (repeat sp k ++ sci_body upper neg m x p)
  = Some ((if neg then -(1) else 1) * (inject_Z m / inject_Z (pow10 p)) * Qpow10 x)%Q.
Proof.
  intros Hm. destruct (fixdigs_spec (S p) m) as (F1 & F2 & F3).
  rewrite Z.mod_small in F2 by exact Hm. unfold sci_body.
  destruct (fixdigs (S p) m) as [|d r]; [discriminate|]. injection F1 as <-. rewrite <- F2.
  replace (match length r with O => [] | S _ => "."%char :: dchars r end)
    with (match r with [] => [] | f :: t => "."%char :: dchars (f :: t) end) by (destruct r; reflexivity).
  apply parse_sci_generic; [exact (Forall_inv F3)|exact (Forall_inv_tail F3)].
Qed.

(* format(q, 'w.pe') / 'w.pE' for q <> 0 reads back as the p+1 significant digits m of q at their exponent, with the sign of q *)
Lemma fmt_e_reads upper q w p m x : ~ (q == 0)%Q -> sig_round q (S p) = (m, x) ->
  exists z, parse_sci (fmt_e upper (Fin q) w p) = Some z /\
            (z == (if qneg q then -(1) else 1) * (inject_Z m * Qpow10 (x - Z.of_nat (S p) + 1)))%Q.
Proof.
  intros Hq SR. unfold parse_sci, fmt_e, chars. rewrite list_ascii_of_string_of_list_ascii.
  unfold fmt_e_chars, lpad. rewrite SR.
  destruct (Qeq_bool q 0) eqn:E0; [apply Qeq_bool_iff in E0; contradiction|].
  destruct (sig_round_half_ulp q (S p) Hq ltac:(lia) m x SR) as ([M1 M2] & _).
  eexists. split; [apply sci_body_reads; pose proof (pow10_pos (S p - 1)); lia|].
  rewrite <- Qmult_assoc, sci_digits_value. replace (x - Z.of_nat (S p) + 1) with (x - Z.of_nat p) by lia. reflexivity.
Qed.
