(* Proofs/FrictionProofs.v - lemmas about Model/Friction.v.
   The loss is f * K / D^5 with K >= 0 free of D ([dp_of_closed]); every monotonicity in the diameter is the one
   comparison [dp_of_mono_growth] of two friction factors under f2 * d1^5 <= f1 * d2^5. *)
From Coq Require Import QArith Qabs List ZArith Bool Lia Lqa.
From Verif Require Import Base.Flat Proofs.FlatFacts Model.Friction.
Import ListNotations.
Open Scope Q_scope.

Lemma Qdiv_le_antimono a x y : 0 <= a -> 0 < y -> y <= x -> a / x <= a / y.
Proof.
  intros Ha Hy Hyx. apply Qle_shift_div_l; [exact Hy|].
  pose proof (Qmult_div_r a x) as E. assert (0 <= a / x) by (apply Qle_shift_div_l; lra). nra.
Qed.

(* cross-multiplication: f2/b <= f1/a, scaled by K >= 0, from f2*a <= f1*b *)
Lemma Qdiv_le_cross f1 f2 K a b : 0 <= K -> 0 < a -> 0 < b -> f2 * a <= f1 * b -> f2 * K / b <= f1 * K / a.
Proof.
  intros HK Ha Hb H. apply Qle_shift_div_l; [exact Ha|].
  apply Qle_trans with (K * (f2 * a) / b); [unfold Qdiv; lra|].
  apply Qle_shift_div_r; [exact Hb|]. nra.
Qed.

Lemma pow5_pos d : 0 < d -> 0 < pow5 d.
Proof.
  intros H. unfold pow5.
  assert (0 < d * d) by nra. assert (0 < d * d * d) by nra. assert (0 < d * d * d * d) by nra. nra.
Qed.

(* D grows slower than D^5: after division by d1*d2 this is d1^4 <= d2^4 *)
Lemma pow5_growth d1 d2 : 0 < d1 -> d1 <= d2 -> d2 * pow5 d1 <= d1 * pow5 d2.
Proof.
  intros H0 H. unfold pow5. assert (A : d1 * d1 <= d2 * d2) by nra.
  assert (B : (d1 * d1) * (d1 * d1) <= (d2 * d2) * (d2 * d2)) by nra.
  assert (0 < d1 * d2) by nra. clear A H0 H. nra.
Qed.

(* Darcy-Weisbach with v = q/(rho*pi/4*d^2):  DP = f * 8 q^2 depth / (pi^2 rho d^5) / 1000 *)
Lemma dp_of_closed f q rho pi depth d :
  ~ rho == 0 -> ~ pi == 0 -> ~ d == 0 ->
  dp_of f q rho pi depth d == f * (8 * (q * q) * depth / (pi * pi * rho * 1000)) / pow5 d.
Proof.
  intros Hr Hp Hd. unfold dp_of, dp_friction, velocity, pow5. field. repeat split; assumption.
Qed.

(* the laminar factor 64/Re is 16 pi mu D / q *)
Lemma f_laminar_closed q mu pi d :
  ~ q == 0 -> ~ mu == 0 -> ~ pi == 0 -> ~ d == 0 -> f_laminar (reynolds q mu pi d) == 16 * mu * pi / q * d.
Proof. intros Hq Hm Hp Hd. unfold f_laminar, reynolds. field. repeat split; assumption. Qed.

Lemma dp_of_mono_growth f1 f2 q rho pi depth d1 d2 :
  0 < rho -> 0 < pi -> 0 <= depth -> 0 < d1 -> 0 < d2 ->
  f2 * pow5 d1 <= f1 * pow5 d2 ->
  dp_of f2 q rho pi depth d2 <= dp_of f1 q rho pi depth d1.
Proof.
  intros Hr Hp Hdepth Hd1 Hd2 Hg.
  assert (HK : 0 <= 8 * (q * q) * depth / (pi * pi * rho * 1000)).
  { assert (0 <= 8 * (q * q) * depth)
      by (apply Qmult_le_0_compat; [apply Qmult_le_0_compat; [discriminate|nra]|exact Hdepth]).
    apply Qle_shift_div_l; [do 3 (apply Qmult_lt_0_compat; [|assumption || reflexivity]); exact Hp|lra]. }
  pose proof (Qdiv_le_cross f1 f2 _ _ _ HK (pow5_pos d1 Hd1) (pow5_pos d2 Hd2) Hg).
  pose proof (dp_of_closed f1 q rho pi depth d1). pose proof (dp_of_closed f2 q rho pi depth d2). lra.
Qed.

(* the laminar branch satisfies the growth bound by itself *)
Lemma laminar_growth q mu pi d1 d2 :
  0 < q -> 0 < mu -> 0 < pi -> 0 < d1 -> d1 <= d2 ->
  f_laminar (reynolds q mu pi d2) * pow5 d1 <= f_laminar (reynolds q mu pi d1) * pow5 d2.
Proof.
  intros Hq Hm Hp Hd1 Hd.
  assert (E : forall d, 0 < d -> f_laminar (reynolds q mu pi d) == 16 * mu * pi / q * d)
    by (intros d Hd0; apply f_laminar_closed; lra).
  pose proof (E d1 Hd1) as E1. assert (Hd2 : 0 < d2) by lra. pose proof (E d2 Hd2) as E2.
  pose proof (pow5_growth d1 d2 Hd1 Hd) as P.
  assert (HC : 0 <= 16 * mu * pi / q) by (apply Qle_shift_div_l; nra).
  clear E Hq Hm Hp Hd1 Hd Hd2. nra.
Qed.

Lemma velocity_mass_balance q rho pi d :
  ~ rho == 0 -> ~ pi == 0 -> ~ d == 0 -> velocity q rho pi d * rho * (pi / 4 * (d * d)) == q.
Proof. intros Hr Hp Hd. unfold velocity. field. repeat split; assumption. Qed.

(* the code's 4q/(mu pi D) is the textbook rho v D / mu *)
Lemma reynolds_textbook q rho mu pi d :
  ~ rho == 0 -> ~ mu == 0 -> ~ pi == 0 -> ~ d == 0 ->
  reynolds q mu pi d == rho * velocity q rho pi d * d / mu.
Proof. intros Hr Hm Hp Hd. unfold reynolds, velocity. field. repeat split; assumption. Qed.

Lemma reynolds_antimono q mu pi d1 d2 :
  0 <= q -> 0 < mu -> 0 < pi -> 0 < d1 -> d1 <= d2 -> reynolds q mu pi d2 <= reynolds q mu pi d1.
Proof.
  intros Hq Hm Hp Hd1 Hd. unfold reynolds.
  assert (Hmp : 0 < mu * pi) by nra.
  apply Qdiv_le_antimono; [lra| nra | nra].
Qed.

Lemma velocity_antimono q rho pi d1 d2 :
  0 <= q -> 0 < rho -> 0 < pi -> 0 < d1 -> d1 <= d2 -> velocity q rho pi d2 <= velocity q rho pi d1.
Proof.
  intros Hq Hr Hp Hd1 Hd. unfold velocity.
  assert (H4 : 0 < pi / 4) by (apply Qlt_shift_div_l; lra).
  apply Qdiv_le_antimono.
  - apply Qle_shift_div_l; lra.
  - apply Qmult_lt_0_compat; [exact H4|apply Qmult_lt_0_compat; exact Hd1].
  - apply Qmult_le_l; [exact H4|]. apply Qmult_le_compat_nonneg; split; lra.
Qed.

(* which branch the code takes: strictly below 2300 laminar, AT and above 2300 the turbulent correlation *)
Lemma well_f_laminar_branch colebrook q mu pi d :
  reynolds q mu pi d < 2300 -> well_f colebrook q mu pi d = f_laminar (reynolds q mu pi d).
Proof. intros H. unfold well_f. apply Qltb_true in H. now rewrite H. Qed.

Lemma well_f_turbulent_branch colebrook q mu pi d :
  2300 <= reynolds q mu pi d -> well_f colebrook q mu pi d = colebrook ((1 # 10000) / d) (reynolds q mu pi d).
Proof. intros H. unfold well_f. apply Qltb_false in H. now rewrite H. Qed.

Lemma laminar_stays_laminar q mu pi d1 d2 :
  0 <= q -> 0 < mu -> 0 < pi -> 0 < d1 -> d1 <= d2 -> reynolds q mu pi d1 < 2300 -> reynolds q mu pi d2 < 2300.
Proof. intros Hq Hm Hp Hd1 Hd H. pose proof (reynolds_antimono q mu pi d1 d2 Hq Hm Hp Hd1 Hd). lra. Qed.

(* the laminar factor just below the switch stays above 64/2300: the code's f is not continuous at Re = 2300 unless
   the turbulent correlation happens to return 64/2300 there *)
Lemma laminar_factor_above_limit re : 0 < re -> re < 2300 -> 64 / 2300 < f_laminar re.
Proof.
  intros H0 H. unfold f_laminar. apply Qlt_shift_div_l; [exact H0|].
  change (64 / 2300) with (64 # 2300). lra.
Qed.

(* series: ONE branch for all time steps, decided by the average Reynolds number *)
Lemma friction_series_laminar q pi d mu fturb :
  laminar_regime q pi d mu = true -> friction_series q pi d mu fturb = map (fun m => f_laminar (reynolds q m pi d)) mu.
Proof. intros H. unfold friction_series. now rewrite H. Qed.

Lemma friction_series_turbulent q pi d mu fturb :
  laminar_regime q pi d mu = false -> friction_series q pi d mu fturb = fturb.
Proof. intros H. unfold friction_series. now rewrite H. Qed.

Lemma dp_series_nth q pi depth d : forall f rho i, (i < length f)%nat -> (i < length rho)%nat ->
  nth i (dp_series q pi depth d f rho) 0 = dp_of (nth i f 0) q (nth i rho 0) pi depth d.
Proof.
  induction f as [|x f IH]; intros rho i Hf Hr; [cbn in Hf; lia|].
  destruct rho as [|r rho]; [cbn in Hr; lia|]. destruct i as [|j]; [reflexivity|].
  cbn [dp_series nth]. apply IH; cbn in Hf, Hr; lia.
Qed.
