(* Proofs/GradientProofs.v - the bottom-hole temperature of Model/Gradient.v.  For the closed form: Trock = min(T(depth),
   Tmax) with the depth reduced exactly when needed, and T(depth) = Tsurf + integral of the gradients.  For the code-shaped
   walk of Reservoir.Calculate: it computes the closed form for 1..4 segments.  For the reader's magnitude heuristics: they
   always yield well-formed layers, so every input that satisfies input_ok runs and obeys the closed form. *)
From Coq Require Import QArith Qminmax Qabs List ZArith Bool Lia Lqa PeanoNat.
From Verif Require Import Base.Flat Proofs.FlatFacts Model.Gradient.
Import ListNotations.
Open Scope Q_scope.

(* what the user wrote as "Thickness i": positive *)
Definition user_pos (us : list (option Q)) : Prop := forall v, In (Some v) us -> 0 < v.

(* the inputs the reader accepts (ranges of Reservoir.py; only what the proof needs is kept) *)
Definition input_ok (i : bht_input) : Prop :=
  (1 <= bi_n i <= 4)%nat /\ bi_Ts i < bi_Tmax i /\ bi_Tmax i < prefill /\
  match bi_depth_km i with Some km => 0 < km /\ km <= 100 | None => True end /\
  user_pos (bi_thick i).

Lemma Tprofile_ext upper gb : forall Ts Ts' d d', Ts == Ts' -> d == d' ->
  Tprofile Ts upper gb d == Tprofile Ts' upper gb d'.
Proof.
  induction upper as [|[g th] rest IH]; intros Ts Ts' d d' HT Hd; cbn [Tprofile].
  - rewrite HT, Hd. reflexivity.
  - destruct (Qlt_le_dec th d), (Qlt_le_dec th d'); try lra.
    + apply IH; lra.
    + rewrite HT, Hd. reflexivity.
Qed.

Lemma Tprofile_0 upper gb Ts : Forall (fun p => 0 < fst p /\ 0 < snd p) upper -> Tprofile Ts upper gb 0 == Ts.
Proof.
  intros HF. destruct HF as [|[g th] r [Hg Hth] HF]; cbn [Tprofile]. ring.
  cbn in Hth. destruct (Qlt_le_dec th 0); [lra|ring].
Qed.

Lemma Tprofile_mono Ts upper gb : wf upper gb -> forall d1 d2, d1 <= d2 ->
  Tprofile Ts upper gb d1 <= Tprofile Ts upper gb d2.
Proof.
  intros [Hgb HF]. revert Ts. induction HF as [|[g th] rest [Hg Hth] HF IH]; intros Ts d1 d2 H; cbn [Tprofile].
  - nra.
  - cbn in Hg, Hth. destruct (Qlt_le_dec th d1), (Qlt_le_dec th d2).
    + apply IH. lra.
    + lra.
    + specialize (IH (Ts + g*th) 0 (d2 - th)). rewrite Tprofile_0 in IH by assumption.
      assert (0 <= d2 - th) by lra. specialize (IH H0). nra.
    + nra.
Qed.

Lemma maxdepth_nonneg upper gb Tmax : wf upper gb -> forall Ts, Ts <= Tmax -> 0 <= maxdepth Ts Tmax upper gb.
Proof.
  intros [Hgb HF]. induction HF as [|[g th] r [Hg Hth] HF IH]; intros Ts HT; cbn [maxdepth].
  - apply Qle_shift_div_l; lra.
  - cbn in Hg, Hth. destruct (Qlt_le_dec Tmax (Ts + g*th)). apply Qle_shift_div_l; lra.
    specialize (IH (Ts + g*th) q). lra.
Qed.

Lemma maxdepth_pos upper gb Tmax : wf upper gb -> forall Ts, Ts < Tmax -> 0 < maxdepth Ts Tmax upper gb.
Proof.
  intros [Hgb HF]. destruct HF as [|[g th] r [Hg Hth] HF]; intros Ts HT; cbn [maxdepth].
  - apply Qlt_shift_div_l; lra.
  - cbn in Hg, Hth. destruct (Qlt_le_dec Tmax (Ts + g*th)). apply Qlt_shift_div_l; lra.
    pose proof (maxdepth_nonneg r gb Tmax (conj Hgb HF) (Ts + g*th) q). lra.
Qed.

(* over the depth (Tmax - Ts) / g a gradient g > 0 carries Ts to Tmax *)
Lemma gradient_reaches_Tmax g Ts Tmax d : 0 < g -> d == (Tmax - Ts) / g -> Ts + g * d == Tmax.
Proof. intros Hg ->. rewrite Qmult_div_r by lra. ring. Qed.

(* d is left free up to == so that the induction hypothesis applies to d - th as it stands *)
Lemma at_maxdepth_gen upper : forall Ts Tmax gb d, wf upper gb -> Ts <= Tmax ->
  d == maxdepth Ts Tmax upper gb -> Tprofile Ts upper gb d == Tmax.
Proof.
  induction upper as [|[g th] rest IH]; intros Ts Tmax gb d [Hgb HF] HT; cbn [Tprofile maxdepth].
  - apply gradient_reaches_Tmax, Hgb.
  - inversion_clear HF as [|? ? [Hg Hth] HF']. cbn [fst snd] in Hg, Hth.
    destruct (Qlt_le_dec Tmax (Ts + g*th)) as [Hlt|Hle]; intros Hd.
    + pose proof (gradient_reaches_Tmax g Ts Tmax d Hg Hd). destruct (Qlt_le_dec th d) as [H1|_]; [|assumption].
      apply (Qmult_lt_l _ _ g Hg) in H1. lra.
    + destruct (Qlt_le_dec th d) as [_|H1].
      * apply IH; [split; assumption|assumption|lra].
      * (* the cap lies on the interface: th + maxdepth .. <= th leaves Ts + g*th == Tmax *)
        destruct (Qlt_le_dec (Ts + g*th) Tmax) as [Hlt|Hge].
        { pose proof (maxdepth_pos rest gb Tmax (conj Hgb HF') _ Hlt). lra. }
        pose proof (maxdepth_nonneg rest gb Tmax (conj Hgb HF') _ Hle).
        assert (E : d == th) by lra. rewrite E. lra.
Qed.

Lemma Tprofile_at_maxdepth upper : forall Ts Tmax gb, wf upper gb -> Ts <= Tmax ->
  Tprofile Ts upper gb (maxdepth Ts Tmax upper gb) == Tmax.
Proof. intros Ts Tmax gb Hwf HT. now apply at_maxdepth_gen. Qed.

Lemma capped_depth_cases Ts Tmax upper gb depth :
  maxdepth Ts Tmax upper gb < depth /\ capped_depth Ts Tmax upper gb depth = maxdepth Ts Tmax upper gb \/
  depth <= maxdepth Ts Tmax upper gb /\ capped_depth Ts Tmax upper gb depth = depth.
Proof. unfold capped_depth. cbv zeta. destruct (Qlt_le_dec _ _); [left|right]; split; (assumption || reflexivity). Qed.

Theorem trock_is_min Ts Tmax upper gb depth : wf upper gb -> Ts <= Tmax ->
  trock Ts Tmax upper gb depth == Qmin (Tprofile Ts upper gb depth) Tmax.
Proof.
  intros Hwf HT. unfold trock. pose proof (Tprofile_at_maxdepth upper Ts Tmax gb Hwf HT) as Hat.
  destruct (capped_depth_cases Ts Tmax upper gb depth) as [[H ->]|[H ->]]; symmetry.
  - rewrite Hat. apply Q.min_r. rewrite <- Hat. apply Tprofile_mono; [assumption|lra].
  - apply Q.min_l. rewrite <- Hat. apply Tprofile_mono; assumption.
Qed.

Corollary trock_le_Tmax Ts Tmax upper gb depth : wf upper gb -> Ts <= Tmax ->
  trock Ts Tmax upper gb depth <= Tmax.
Proof. intros. rewrite trock_is_min by assumption. apply Q.le_min_r. Qed.

Lemma capped_depth_le Ts Tmax upper gb depth : capped_depth Ts Tmax upper gb depth <= depth.
Proof. destruct (capped_depth_cases Ts Tmax upper gb depth) as [[H ->]|[H ->]]; lra. Qed.

Lemma capped_depth_pos Ts Tmax upper gb depth : wf upper gb -> Ts < Tmax -> 0 < depth ->
  0 < capped_depth Ts Tmax upper gb depth.
Proof.
  intros Hwf HT Hd. pose proof (maxdepth_pos _ _ Tmax Hwf Ts HT).
  destruct (capped_depth_cases Ts Tmax upper gb depth) as [[_ ->]|[_ ->]]; assumption.
Qed.

(* the depth is reduced exactly when the uncapped temperature would exceed Tmax *)
Lemma capped_temperature_unchanged Ts Tmax upper gb depth : wf upper gb -> Ts <= Tmax ->
  Tprofile Ts upper gb depth <= Tmax ->
  Tprofile Ts upper gb (capped_depth Ts Tmax upper gb depth) == Tprofile Ts upper gb depth.
Proof.
  intros Hwf HT Hle. fold (trock Ts Tmax upper gb depth). rewrite trock_is_min by assumption.
  apply Q.min_l. exact Hle.
Qed.

Lemma capped_depth_reduced Ts Tmax upper gb depth : wf upper gb -> Ts <= Tmax ->
  Tmax < Tprofile Ts upper gb depth ->
  capped_depth Ts Tmax upper gb depth < depth /\
  Tprofile Ts upper gb (capped_depth Ts Tmax upper gb depth) == Tmax.
Proof.
  intros Hwf HT Hgt. split.
  - destruct (capped_depth_cases Ts Tmax upper gb depth) as [[H ->]|[H _]]; [exact H|].
    pose proof (Tprofile_mono Ts upper gb Hwf _ _ H) as Hm.
    rewrite (Tprofile_at_maxdepth upper Ts Tmax gb Hwf HT) in Hm. lra.
  - fold (trock Ts Tmax upper gb depth). rewrite trock_is_min by assumption. apply Q.min_r. lra.
Qed.

(* what of the layer [top, top + th] lies above depth d *)
Lemma overlap_none top th d : 0 <= th -> d <= top -> Qmax 0 (Qmin d (top + th) - top) == 0.
Proof. intros. apply Q.max_l. pose proof (Q.le_min_l d (top + th)). lra. Qed.

Lemma overlap_part top th d : top <= d -> d <= top + th -> Qmax 0 (Qmin d (top + th) - top) == d - top.
Proof. intros. rewrite Q.min_l, Q.max_r; lra. Qed.

Lemma overlap_all top th d : 0 <= th -> top + th <= d -> Qmax 0 (Qmin d (top + th) - top) == th.
Proof. intros. rewrite Q.min_r, Q.max_r; lra. Qed.

Lemma grad_integral_zero upper gb : forall top d, Forall (fun p => 0 <= snd p) upper -> d <= top ->
  grad_integral upper gb top d == 0.
Proof.
  induction upper as [|[g th] rest IH]; intros top d HF Hd; cbn [grad_integral].
  - rewrite Q.max_l; lra.
  - inversion_clear HF as [|? ? Hth HF']. cbn [snd] in Hth.
    pose proof (overlap_none top th d Hth Hd). assert (Hd' : d <= top + th) by lra.
    pose proof (IH (top + th) d HF' Hd'). nra.
Qed.

(* the depth argument is left free up to == so that the induction hypothesis applies as it stands *)
Lemma Tprofile_integral_gen upper gb : forall Ts top d x, Forall (fun p => 0 <= snd p) upper -> top <= d -> x == d - top ->
  Tprofile Ts upper gb x == Ts + grad_integral upper gb top d.
Proof.
  induction upper as [|[g th] rest IH]; intros Ts top d x HF Hd Hx; cbn [Tprofile grad_integral].
  - rewrite Q.max_r by lra. nra.
  - inversion_clear HF as [|? ? Hth HF']. cbn [snd] in Hth.
    destruct (Qlt_le_dec th x) as [H|H].
    + assert (Hd' : top + th <= d) by lra. assert (Hx' : x - th == d - (top + th)) by lra.
      pose proof (overlap_all top th d Hth Hd').
      pose proof (IH (Ts + g * th) (top + th) d (x - th) HF' Hd' Hx'). nra.
    + assert (Hd' : d <= top + th) by lra.
      pose proof (overlap_part top th d Hd Hd').
      pose proof (grad_integral_zero rest gb (top + th) d HF' Hd'). nra.
Qed.

Theorem Tprofile_eq_integral Ts upper gb d : Forall (fun p => 0 <= snd p) upper -> 0 <= d ->
  Tprofile Ts upper gb d == Ts + grad_integral upper gb 0 d.
Proof. intros HF Hd. apply Tprofile_integral_gen; [assumption|assumption|ring]. Qed.

Lemma wf_thick_nonneg upper gb : wf upper gb -> Forall (fun p => 0 <= snd p) upper.
Proof.
  intros [_ HF]. induction HF as [|p r [_ H] HF IH]; constructor; [lra|assumption].
Qed.

Lemma Forall_firstn_q (P : Q -> Prop) n (l : list Q) : Forall P l -> Forall P (firstn n l).
Proof. revert l. induction n; intros l H; cbn. constructor. destruct H; constructor; auto. Qed.

Lemma Forall_combine_q (P R : Q -> Prop) : forall a b, Forall P a -> Forall R b ->
  Forall (fun p => P (fst p) /\ R (snd p)) (combine a b).
Proof.
  induction a as [|x a IH]; intros b Ha Hb; cbn. constructor.
  destruct b as [|y b]. constructor.
  inversion_clear Ha; inversion_clear Hb. constructor. split; assumption. apply IH; assumption.
Qed.

Lemma isect_length : forall k t gs ths, (k <= length gs)%nat -> (k <= length ths)%nat ->
  length (isect t gs ths k) = k.
Proof.
  induction k; intros t gs ths Hg Ht. reflexivity.
  destruct gs as [|g gs]; [inversion Hg|]. destruct ths as [|th ths]; [inversion Ht|].
  cbn [isect length]. rewrite IHk by (apply le_S_n; assumption). reflexivity.
Qed.

Lemma upper_of_S k gs ths : upper_of (S k) gs ths = combine (firstn k gs) (firstn k ths).
Proof. destruct k; reflexivity. Qed.

Lemma bottom_of_S k gs : bottom_of (S k) gs = nth k gs 0.
Proof. destruct k; reflexivity. Qed.

Lemma intersect_list_S k Ts gs ths : intersect_list (S k) Ts gs ths = isect Ts gs ths k ++ repeat prefill (4 - k).
Proof. destruct k; reflexivity. Qed.

(* maxdepth as Reservoir.Calculate computes it from the index li of the first interface temperature above Tmax:
   layerindex == 0 / layerindex > 0 *)
Definition md_formula (Ts Tmax : Q) (gs ths it : list Q) (li : nat) : Q :=
  match li with
  | O => (Tmax - Ts) / nth 0 gs 0
  | S j => sumQ (firstn (S j) ths) + (Tmax - nth j it 0) / nth (S j) gs 0
  end.

Lemma md_formula_cons Ts Tmax g gs th ths it li :
  md_formula Ts Tmax (g :: gs) (th :: ths) ((Ts + g * th) :: it) (S li)
  == th + md_formula (Ts + g * th) Tmax gs ths it li.
Proof. destruct li; cbn [md_formula firstn sumQ nth]; lra. Qed.

(* x stands for the first pre-filled entry: being above Tmax it ends the search *)
Lemma maxdepth_code_gen Tmax x tl : Tmax < x ->
  forall k Ts gs ths, (k < length gs)%nat -> (k < length ths)%nat ->
  exists li, first_above Tmax (isect Ts gs ths k ++ x :: tl) = Some li /\ (li <= k)%nat /\
    maxdepth Ts Tmax (combine (firstn k gs) (firstn k ths)) (nth k gs 0)
    == md_formula Ts Tmax gs ths (isect Ts gs ths k ++ x :: tl) li.
Proof.
  intros Hx. induction k as [|k IH]; intros Ts gs ths Hg Ht.
  - exists O. cbn. destruct (Qltb_spec Tmax x); [|lra]. split; [reflexivity|split; [apply le_n|reflexivity]].
  - destruct gs as [|g gs]; [inversion Hg|]. destruct ths as [|th ths]; [inversion Ht|].
    apply Nat.succ_lt_mono in Hg, Ht.
    cbn [isect firstn combine maxdepth app first_above nth].
    destruct (Qltb_spec Tmax (Ts + g * th)) as [Hlt|Hge], (Qlt_le_dec Tmax (Ts + g * th)) as [Hlt'|Hge'];
      [|lra|lra|].
    + exists O. split; [reflexivity|split; [apply Nat.le_0_l|reflexivity]].
    + destruct (IH (Ts + g * th) gs ths Hg Ht) as [li [-> [Hle He]]].
      exists (S li). split; [reflexivity|split; [apply le_n_S, Hle|]]. rewrite md_formula_cons, He. reflexivity.
Qed.

Lemma last_below_none d : forall ths a, Forall (fun t => 0 <= t) ths -> d <= a -> last_below d (cums a ths) = None.
Proof.
  induction ths as [|th r IH]; intros a HF Hd; cbn [cums last_below]. reflexivity.
  inversion_clear HF as [|? ? Hth HF']. rewrite IH by (assumption || lra).
  destruct (Qltb_spec (a + th) d); [lra|reflexivity].
Qed.

Lemma last_below_cons d x r : last_below d (x :: r) =
  match last_below d r with Some i => Some (S i) | None => if Qltb x d then Some O else None end.
Proof. reflexivity. Qed.

(* a depth inside the first layer is found there *)
Lemma last_below_head d a th r : Forall (fun t => 0 <= t) r -> a < d -> d <= a + th ->
  last_below d (a :: cums a (th :: r)) = Some O.
Proof.
  intros HF Ha Hd. cbn [cums]. rewrite !last_below_cons, last_below_none by assumption.
  destruct (Qltb_spec (a + th) d); [lra|]. destruct (Qltb_spec a d); [reflexivity|lra].
Qed.

(* a is the depth of the top of the first layer, tl the pre-filled tail of the interface list; x, the depth below a,
   is left free up to == so that the induction hypothesis applies as it stands *)
Lemma walk_code_gen tl d :
  forall k a Ts gs ths x, (k < length gs)%nat -> (k < length ths)%nat ->
  Forall (fun t => 0 <= t) ths -> a < d -> d <= a + sumQ (firstn (S k) ths) -> x == d - a ->
  exists i, last_below d (a :: cums a ths) = Some i /\ (i <= k)%nat /\
    nth i (Ts :: isect Ts gs ths k ++ tl) 0 + nth i gs 0 * (d - nth i (a :: cums a ths) 0)
    == Tprofile Ts (combine (firstn k gs) (firstn k ths)) (nth k gs 0) x.
Proof.
  induction k as [|k IH]; intros a Ts gs ths x Hg Ht HF Ha Hd Hx.
  - destruct ths as [|th ths]; [inversion Ht|]. inversion_clear HF as [|? ? Hth HF'].
    exists O. cbn [firstn sumQ] in Hd. rewrite last_below_head by (assumption || lra).
    split; [reflexivity|split; [apply le_n|]]. cbn [firstn combine Tprofile nth]. rewrite Hx. reflexivity.
  - destruct ths as [|th ths]; [inversion Ht|]. inversion_clear HF as [|? ? Hth HF'].
    destruct gs as [|g gs]; [inversion Hg|]. apply Nat.succ_lt_mono in Hg, Ht.
    change (firstn (S (S k)) (th :: ths)) with (th :: firstn (S k) ths) in Hd. cbn [sumQ] in Hd.
    cbn [isect firstn combine Tprofile].
    destruct (Qlt_le_dec th x) as [Hdeep|Hshallow].
    + destruct (IH (a + th) (Ts + g * th) gs ths (x - th) Hg Ht HF') as [i [Hl [Hle He]]]; [lra|lra|lra|].
      exists (S i). cbn [cums]. rewrite last_below_cons, Hl.
      split; [reflexivity|split; [apply le_n_S, Hle|exact He]].
    + exists O. rewrite last_below_head by (assumption || lra).
      split; [reflexivity|split; [apply Nat.le_0_l|]]. cbn [nth app]. rewrite Hx. reflexivity.
Qed.

Lemma wf_of_lists n gs ths : (1 <= n <= length gs)%nat -> Forall (fun g => 0 < g) gs -> Forall (fun t => 0 < t) ths ->
  wf (upper_of n gs ths) (bottom_of n gs).
Proof.
  intros [H1 Hn] Hg Ht. destruct n as [|k]; [inversion H1|]. rewrite upper_of_S, bottom_of_S. split.
  - apply Forall_nth; assumption.
  - apply (Forall_combine_q (fun g => 0 < g) (fun t => 0 < t)); apply Forall_firstn_q; assumption.
Qed.

Lemma Forall_pos_nonneg ths : Forall (fun t => 0 < t) ths -> Forall (fun t => 0 <= t) ths.
Proof. intros H. induction H; constructor; [lra|assumption]. Qed.

Lemma qdiv_checked_pos a b : 0 < b -> qdiv_checked a b = Good (a / b).
Proof.
  intros H. unfold qdiv_checked. destruct (Qeqb b 0) eqn:E; [|reflexivity]. apply Qeqb_true in E. lra.
Qed.

Lemma maxdepth_code_refines k Ts Tmax gs ths :
  (k <= 3)%nat -> (k < length gs)%nat -> (k < length ths)%nat -> Forall (fun g => 0 < g) gs -> Tmax < prefill ->
  exists md, maxdepth_code (S k) Ts Tmax gs ths = Good md /\
             md == maxdepth Ts Tmax (combine (firstn k gs) (firstn k ths)) (nth k gs 0).
Proof.
  intros Hk Hg Ht Hpos Hpre.
  assert (Hq : forall a i, (i <= k)%nat -> qdiv_checked a (nth i gs 0) = Good (a / nth i gs 0)).
  { intros a i Hi. apply qdiv_checked_pos, Forall_nth; [exact Hpos|exact (Nat.le_lt_trans _ _ _ Hi Hg)]. }
  destruct (maxdepth_code_gen Tmax prefill (repeat prefill (3 - k)) Hpre k Ts gs ths Hg Ht) as [li [Hf [Hle He]]].
  unfold maxdepth_code. destruct k as [|k]; cbn [Nat.eqb]; cbv zeta.
  - (* one segment: Calculate does not search *)
    rewrite Hq by apply le_n. eexists. split; reflexivity.
  - rewrite intersect_list_S, (Nat.sub_succ_l _ 3 Hk). cbn [repeat]. rewrite Hf.
    destruct li as [|j].
    + rewrite (Hq _ 0%nat (Nat.le_0_l _)). eexists. split; [reflexivity|]. symmetry. exact He.
    + rewrite (Hq _ (S j) Hle). eexists. split; [reflexivity|]. symmetry. exact He.
Qed.

Lemma trock_one_segment Ts Tmax gs ths depth :
  trock Ts Tmax (upper_of 1 gs ths) (bottom_of 1 gs) depth
  = Ts + nth 0 gs 0 * capped_depth Ts Tmax (upper_of 1 gs ths) (bottom_of 1 gs) depth.
Proof. reflexivity. Qed.

(* the path of bht_code on which nothing is raised *)
Lemma bht_code_good n Ts Tmax gs ths depth md i :
  (1 <= n <= 4)%nat -> (n <= length gs)%nat -> (n <= length ths)%nat ->
  maxdepth_code n Ts Tmax gs ths = Good md ->
  let d := if Qltb md depth then md else depth in
  last_below d (0 :: cums 0 ths) = Some i ->
  (i < length (Ts :: intersect_list n Ts gs ths))%nat -> (i < length gs)%nat ->
  bht_code n Ts Tmax gs ths depth =
  Good (nth i (Ts :: intersect_list n Ts gs ths) 0 + nth i gs 0 * (d - nth i (0 :: cums 0 ths) 0), d).
Proof.
  intros [H1 H4] Hg Ht Hmd d Hl Hi Hi'. unfold bht_code. rewrite Hmd. cbv zeta. fold d. rewrite Hl.
  apply Nat.leb_le in H1, H4, Hg, Ht. apply Nat.ltb_lt in Hi, Hi'. rewrite H1, H4, Hg, Ht, Hi, Hi'. reflexivity.
Qed.

Theorem bht_code_refines n Ts Tmax gs ths depth :
  (1 <= n <= 4)%nat -> (n <= length gs)%nat -> (n <= length ths)%nat -> Forall (fun g => 0 < g) gs -> Forall (fun t => 0 < t) ths ->
  Ts < Tmax -> Tmax < prefill -> 0 < depth -> depth <= sumQ (firstn n ths) ->
  exists T d, bht_code n Ts Tmax gs ths depth = Good (T, d) /\
    d == capped_depth Ts Tmax (upper_of n gs ths) (bottom_of n gs) depth /\
    T == trock Ts Tmax (upper_of n gs ths) (bottom_of n gs) depth.
Proof.
  intros Hn Hg Ht Hgs Hths HT Hpre Hd0 Hd1.
  pose proof (maxdepth_pos _ _ Tmax (wf_of_lists n gs ths (conj (proj1 Hn) Hg) Hgs Hths) Ts HT) as Hmdpos.
  destruct n as [|k]; [destruct (Nat.nle_succ_0 _ (proj1 Hn))|]. pose proof (le_S_n _ _ (proj2 Hn)) as Hk.
  unfold trock. rewrite upper_of_S, bottom_of_S in *.
  (* the maximum depth, and with it the depth d that is walked *)
  destruct (maxdepth_code_refines k Ts Tmax gs ths Hk Hg Ht Hgs Hpre) as [md [Hmd Emd]].
  set (d := if Qltb md depth then md else depth).
  set (cd := capped_depth Ts Tmax (combine (firstn k gs) (firstn k ths)) (nth k gs 0) depth).
  assert (Hd : d == cd /\ 0 < d <= depth).
  { unfold d, cd.
    destruct (capped_depth_cases Ts Tmax (combine (firstn k gs) (firstn k ths)) (nth k gs 0) depth) as [[H ->]|[H ->]];
      destruct (Qltb_spec md depth); lra. }
  destruct Hd as [Hdcap [Hdpos Hdle]].
  (* the walk down to d *)
  destruct (walk_code_gen (repeat prefill (4 - k)) d k 0 Ts gs ths cd Hg Ht) as [i [Hl [Hle He]]];
    [apply Forall_pos_nonneg, Hths|exact Hdpos|lra|lra|].
  rewrite <- intersect_list_S in He.
  (* nothing is raised: the index found lies inside both lists *)
  eexists. exists d. split; [|split; [exact Hdcap|exact He]].
  apply (bht_code_good (S k) Ts Tmax gs ths depth md i Hn Hg Ht Hmd Hl); [|exact (Nat.le_lt_trans _ _ _ Hle Hg)].
  cbn [length]. rewrite intersect_list_S, app_length, isect_length by (apply Nat.lt_le_incl; assumption).
  apply le_n_S, (Nat.le_trans _ _ _ Hle), Nat.le_add_r.
Qed.

Lemma norm_gradient_pos g : 0 < norm_gradient g.
Proof.
  unfold norm_gradient, tiny_gradient. cbv zeta.
  destruct (Qltb 1 g); match goal with |- context [Qltb ?a ?b] => destruct (Qltb_spec a b) end; lra.
Qed.

Lemma norm_thickness_pos t : 0 < t -> 0 < norm_thickness t.
Proof. intros H. unfold norm_thickness. destruct (Qltb t 100); lra. Qed.

(* in-range values keep their documented meaning: degC/km above 1, km below 100 *)
Lemma norm_gradient_per_km g : 1 < g -> g <= 500 -> norm_gradient g == g / 1000.
Proof.
  intros H1 H2. unfold norm_gradient, tiny_gradient. cbv zeta.
  destruct (Qltb_spec 1 g); [|lra].
  assert (1 # 1000 < g / 1000) by (apply Qlt_shift_div_l; lra).
  destruct (Qltb_spec (g / 1000) (1 # 1000000)); [lra|reflexivity].
Qed.

Lemma norm_thickness_km t : t < 100 -> norm_thickness t == t * 1000.
Proof. intros H. unfold norm_thickness. destruct (Qltb_spec t 100); [reflexivity|lra]. Qed.

Lemma merge_length : forall ds us, length (merge ds us) = length ds.
Proof.
  induction ds as [|d ds IH]; intros us; destruct us as [|[v|] us]; cbn; try reflexivity; rewrite IH; reflexivity.
Qed.

Lemma merge_pos : forall ds us, Forall (fun t => 0 < t) ds -> user_pos us -> Forall (fun t => 0 < t) (merge ds us).
Proof.
  induction ds as [|d ds IH]; intros us Hd Hu; [destruct us; constructor|].
  inversion_clear Hd as [|? ? Hd0 Hds]. destruct us as [|[v|] us]; cbn [merge].
  - constructor; assumption.
  - constructor; [apply Hu; left; reflexivity|]. apply IH; [assumption|]. intros w Hw. apply Hu. right. exact Hw.
  - constructor; [assumption|]. apply IH; [assumption|]. intros w Hw. apply Hu. right. exact Hw.
Qed.

Lemma set_nth_length : forall i v l, length (set_nth i v l) = length l.
Proof. induction i; intros v [|x l]; cbn; try reflexivity. rewrite IHi. reflexivity. Qed.

Lemma set_nth_Forall (P : Q -> Prop) : forall i v l, P v -> Forall P l -> Forall P (set_nth i v l).
Proof.
  induction i; intros v [|x l] Hv Hl; cbn; try constructor; inversion Hl; subst; try assumption.
  apply IHi; assumption.
Qed.

Lemma set_nth_nth : forall i v l, (i < length l)%nat -> nth i (set_nth i v l) 0 = v.
Proof. induction i; intros v [|x l] H; cbn in *; try lia. reflexivity. apply IHi. lia. Qed.

Lemma gradients_of_ok i : Forall (fun g => 0 < g) (gradients_of i) /\ length (gradients_of i) = 4%nat.
Proof.
  split. apply Forall_map, Forall_forall. intros g _. apply norm_gradient_pos.
  unfold gradients_of. rewrite map_length, merge_length. reflexivity.
Qed.

Lemma default_thicknesses_pos : Forall (fun t => 0 < t) default_thicknesses.
Proof. unfold default_thicknesses. repeat constructor. Qed.

Lemma thicknesses_of_ok i : user_pos (bi_thick i) -> (1 <= bi_n i)%nat ->
  Forall (fun t => 0 < t) (thicknesses_of i) /\ (bi_n i <= length (thicknesses_of i))%nat /\
  nth (bi_n i - 1) (thicknesses_of i) 0 = bottom_thickness.
Proof.
  intros Hu Hn. unfold thicknesses_of, norm_thicknesses. cbv zeta.
  set (raw := merge default_thicknesses (bi_thick i)).
  assert (Hraw : Forall (fun t => 0 < t) raw) by (apply merge_pos; [apply default_thicknesses_pos|assumption]).
  set (l := map norm_thickness raw ++ repeat bottom_thickness (bi_n i - length (map norm_thickness raw))).
  assert (Hl : Forall (fun t => 0 < t) l).
  { unfold l. apply Forall_app. split.
    - clear l. induction Hraw; cbn; constructor; [apply norm_thickness_pos; assumption|assumption].
    - apply Forall_forall. intros x Hx. apply repeat_spec in Hx. subst. unfold bottom_thickness. lra. }
  assert (Hlen : (bi_n i <= length l)%nat).
  { unfold l. rewrite app_length, repeat_length. lia. }
  split; [|split].
  - apply set_nth_Forall; [unfold bottom_thickness; lra|assumption].
  - rewrite set_nth_length. exact Hlen.
  - apply set_nth_nth. lia.
Qed.

Lemma sumQ_nonneg l : Forall (fun t => 0 <= t) l -> 0 <= sumQ l.
Proof. induction 1; cbn [sumQ]; lra. Qed.

Lemma nth_le_sum_firstn : forall n (l : list Q) i, Forall (fun t => 0 <= t) l -> (i < n)%nat -> (n <= length l)%nat ->
  nth i l 0 <= sumQ (firstn n l).
Proof.
  induction n; intros l i HF Hi Hn. inversion Hi.
  destruct l as [|x l]; [inversion Hn|]. inversion_clear HF as [|? ? Hx HF']. cbn [firstn sumQ].
  destruct i; cbn [nth].
  - pose proof (sumQ_nonneg _ (Forall_firstn_q _ n l HF')). lra.
  - pose proof (IHn l i HF' (proj2 (Nat.succ_lt_mono _ _) Hi) (le_S_n _ _ Hn)). lra.
Qed.

Lemma depth_metres_range i : input_ok i -> 0 < depth_metres (bi_depth_km i) <= bottom_thickness.
Proof.
  intros [_ [_ [_ [Hd _]]]]. unfold depth_metres, default_depth, bottom_thickness.
  destruct (bi_depth_km i) as [km|]; lra.
Qed.

Theorem bht_of_input_correct i : input_ok i ->
  let gs := gradients_of i in let ths := thicknesses_of i in
  let upper := upper_of (bi_n i) gs ths in let gb := bottom_of (bi_n i) gs in
  wf upper gb /\
  exists T d, bht_of_input i = Good (T, d) /\
    T == Qmin (Tprofile (bi_Ts i) upper gb (depth_metres (bi_depth_km i))) (bi_Tmax i) /\
    T <= bi_Tmax i /\
    d == capped_depth (bi_Ts i) (bi_Tmax i) upper gb (depth_metres (bi_depth_km i)).
Proof.
  intros Hok. pose proof (depth_metres_range i Hok) as Hdm. destruct Hok as [Hn [HT [Hpre [_ Hu]]]]. cbv zeta.
  destruct (gradients_of_ok i) as [Hgs Hgl].
  destruct (thicknesses_of_ok i Hu (proj1 Hn)) as [Hths [Htl Hbot]].
  assert (Hgl' : (bi_n i <= length (gradients_of i))%nat) by (rewrite Hgl; apply Hn).
  pose proof (wf_of_lists _ _ _ (conj (proj1 Hn) Hgl') Hgs Hths) as Hwf.
  split; [exact Hwf|].
  (* the bottom layer alone is deeper than any accepted depth *)
  assert (Hsum : bottom_thickness <= sumQ (firstn (bi_n i) (thicknesses_of i))).
  { rewrite <- Hbot. apply nth_le_sum_firstn; [apply Forall_pos_nonneg, Hths|lia|exact Htl]. }
  destruct (bht_code_refines (bi_n i) (bi_Ts i) (bi_Tmax i) (gradients_of i) (thicknesses_of i)
              (depth_metres (bi_depth_km i)) Hn Hgl' Htl Hgs Hths HT Hpre (proj1 Hdm)) as [T [d [Hc [Hdc HTr]]]]; [lra|].
  exists T, d. split; [exact Hc|]. apply Qlt_le_weak in HT.
  rewrite HTr. split; [exact (trock_is_min _ _ _ _ _ Hwf HT)|]. split; [exact (trock_le_Tmax _ _ _ _ _ Hwf HT)|exact Hdc].
Qed.

(* the pinned tree (before fix a8610e4) walked down 3 m instead of the 3 km the default denotes *)
Definition default_depth_witness : bht_input :=
  {| bi_n := 1; bi_Ts := 15; bi_Tmax := 400; bi_depth_km := None; bi_grad := [Some 50]; bi_thick := [] |}.

Lemma default_depth_witness_ok : input_ok default_depth_witness.
Proof.
  unfold input_ok, default_depth_witness, prefill, user_pos. cbn.
  split; [lia|]. split; [lra|]. split; [lra|]. split; [exact I|]. intros v [].
Qed.
