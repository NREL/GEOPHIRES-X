(* Proofs/HipPartialProofs.v - C17: which results hip_ra_x.main() publishes after Calculate has raised at each of
   its error sites, and what the published fluid mass is (the mass triple is NOT additive). *)
From Coq Require Import QArith Qabs Qminmax List ZArith Bool String Lia Lqa Setoid.
From Verif Require Import Base.Flat Proofs.FlatFacts Gen.HipTables Model.Fmt Model.HipRa Model.HipReport
     Spec.HipRaSpec Proofs.HipRaProofs.
Import ListNotations.
Open Scope Q_scope.

(* whether or not an exception is raised, something IS published: 25 figures, no status *)
Lemma published_length W i : List.length (published W i) = 25%nat.
Proof. unfold published. destruct (err_site_of W i); reflexivity. Qed.

(* The positions the clauses read.  The volumes are assigned before anything can raise.  The heats are assigned in
   program order: none of them (raised in heat_capacity_water or enthalpy_rock), the three stored heats (raised
   at stored / h_net, so h_net = 0), or all five; what is not assigned shows the 0 it was created with. *)
Lemma published_shape W i :
  let p := published W i in let o := hip_out W i in
  (nth 0 p 0 = o_volume o /\ nth 1 p 0 = o_vol_rock o /\ nth 2 p 0 = o_vol_fluid o) /\
  ((nth 13 p 0 = 0 /\ nth 14 p 0 = 0 /\ nth 15 p 0 = 0 /\ nth 16 p 0 = 0 /\ nth 17 p 0 = 0) \/
   (c_hnet W i == 0 /\ nth 13 p 0 = o_stored_rock o /\ nth 14 p 0 = o_stored_fluid o /\ nth 15 p 0 = o_stored o) \/
   (~ c_mass_rock i == 0 /\ nth 13 p 0 = o_stored_rock o /\ nth 14 p 0 = o_stored_fluid o /\ nth 15 p 0 = o_stored o /\
    nth 16 p 0 = o_avail o /\ nth 17 p 0 = o_prod o)).
Proof.
  unfold published. pose proof (err_site_spec W i) as Hs. destruct (err_site_of W i) as [s|].
  - destruct Hs as [_ Hs]. cbn [nth map seq]. destruct s; (split; [repeat split|]).
    (* SiteHeatCapacity, SiteMassRock: no heat assigned yet *)
    1, 2: left; repeat split.
    (* SiteHnet: Hs says h_net = 0 *)
    1: right; left; split; [exact Hs | repeat split].
    (* the later sites: Hs says the rock mass is not 0 *)
    all: right; right; split; [exact Hs | repeat split].
  - destruct Hs as [_ N]. split; [repeat split|]. right; right. split; [exact (ne_mass_rock N) | repeat split].
Qed.

Lemma raises_mass_rock W i : c_mass_rock i == 0 -> c_fhc_derived i = false \/ (0 <= i_Tres i <= 600) ->
  err_site_of W i = Some SiteMassRock.
Proof.
  intros Hm Hf. unfold err_site_of.
  assert (E : c_fhc_derived i && (Qltb (i_Tres i) 0 || Qltb 600 (i_Tres i)) = false).
  { destruct Hf as [->|[H0 H6]]; [reflexivity|].
    apply andb_false_iff. right. apply orb_false_iff. split; apply Qltb_false; assumption. }
  rewrite E, (proj2 (Qeqb_true _ _) Hm). reflexivity.
Qed.

(* the published fluid mass is the produced mass stored/h_net = fluid volume x density + rock heat / h_net *)
Lemma mass_fluid_eq W i : ~ c_hnet W i == 0 ->
  c_amount W i == c_vol_fluid i * c_fdens W i + c_stored_rock i / c_hnet W i.
Proof. intros Hh. unfold c_amount, c_stored, c_stored_fluid, c_mass_fluid0. field. exact Hh. Qed.

(* rock + published fluid mass - total = rock heat / h_net *)
Lemma mass_excess W i : ~ c_hnet W i == 0 ->
  c_mass_rock i + c_amount W i - c_mass_total W i == c_stored_rock i / c_hnet W i.
Proof. intros Hh. rewrite (mass_fluid_eq W i Hh). unfold c_mass_total, c_mass_fluid0. ring. Qed.

Lemma mass_additive_iff W i : ~ c_hnet W i == 0 ->
  (c_mass_total W i == c_mass_rock i + c_amount W i <-> c_stored_rock i == 0).
Proof.
  intros Hh. pose proof (mass_excess W i Hh) as E. split; intros H.
  - setoid_replace (c_stored_rock i) with (c_stored_rock i / c_hnet W i * c_hnet W i) by (field; exact Hh).
    rewrite <- E, H. ring.
  - rewrite H in E. unfold Qdiv in E. lra.
Qed.

(* the shipped example: in range, Tres > Trej, no error, rock heat not 0 *)
Definition mass_witness_input : hin :=
  {| i_Tres := 250; i_Trej := 60; i_por := 10; i_area := 55; i_thick := 1#4; i_life := 25;
     i_rhc := 2840000000000#1; i_fhc := -1#1; i_fdens := -1#1; i_rdens := 2550000000000#1; i_rff := 1#2; i_rrh := 3#4;
     i_depth_given := false; i_depth := -1#1; i_pres_given := false; i_pres := -1#1;
     i_fdens_min := 100000000000#1; i_fhc_min := 3 |}.
Definition mass_witness_water : water :=
  water_of_data 250 (861884#1000) (433556#100) (1103134#1000) (315026#1000) (2659538#1000000) (792175#1000000).
