(* Proofs/HipReportProofs.v - the HIP-RA-X report line and its parse by the client (Model/HipReport.v), for C17. *)
From Coq Require Import String Ascii QArith Qabs ZArith List Bool Lia Lqa.
From Verif Require Import Base.Flat Model.Fmt Proofs.FmtProofs Proofs.FmtSciProofs Gen.HipTables Model.HipRa
     Model.HipReport.
Import ListNotations.
Open Scope Z_scope.

(* the characters of a mantissa: in the client's number class and not an exponent mark *)
Definition plain (c : ascii) : Prop := numclass c = true /\ is_e c = false.

Lemma digit_char_plain d : digit d -> plain (digit_char d).
Proof.
  intros H. destruct (digit_char_facts d H) as (A & _). split; [unfold numclass; rewrite A; reflexivity|].
  destruct (is_e (digit_char d)) eqn:E; [|reflexivity].
  apply orb_prop in E. destruct E as [E|E]; apply Ascii.eqb_eq in E; rewrite E in A; discriminate A.
Qed.

Lemma dchars_plain ds : Forall digit ds -> Forall plain (dchars ds).
Proof. induction 1; constructor; [apply digit_char_plain|]; assumption. Qed.

Lemma plain_numclass l : Forall plain l -> Forall (fun c => numclass c = true) l.
Proof. apply Forall_impl. intros c [H _]. exact H. Qed.
Lemma plain_not_e l : Forall plain l -> Forall (fun c => is_e c = false) l.
Proof. apply Forall_impl. intros c [_ H]. exact H. Qed.

(* sign, integer digits, optional fraction: the body of a fixed field and the mantissa of a scientific one *)
Lemma body_plain (neg : bool) ip fp (p : nat) : Forall digit ip -> Forall digit fp ->
  Forall plain ((if neg then ["-"%char] else []) ++ dchars ip ++ match p with O => [] | S _ => "."%char :: dchars fp end).
Proof.
  intros Hi Hf. apply Forall_app; split; [|apply Forall_app; split].
  - destruct neg; repeat constructor.
  - apply dchars_plain, Hi.
  - destruct p; constructor; [split; reflexivity | apply dchars_plain, Hf].
Qed.

Lemma is_e_numclass c : is_e c = true -> numclass c = true.
Proof. unfold numclass. intros ->. destruct (is_digit c); reflexivity. Qed.

Lemma sign_numclass c : Ascii.eqb c "-"%char || Ascii.eqb c "+"%char = true -> numclass c = true.
Proof. intros H. apply orb_prop in H. destruct H as [H|H]; apply Ascii.eqb_eq in H; subst; reflexivity. Qed.

Lemma numclass_not_space c : numclass c = true -> Ascii.eqb c sp = false.
Proof.
  intros H. destruct (Ascii.eqb c sp) eqn:E; [|reflexivity].
  apply Ascii.eqb_eq in E. subst. discriminate H.
Qed.

Lemma span_class_body body rest :
  Forall (fun c => numclass c = true) body ->
  match rest with [] => True | c :: _ => numclass c = false end ->
  span_class (body ++ rest) = (body, rest).
Proof.
  intros H R. induction H as [|c l Hc _ IH]; cbn [app span_class].
  - destruct rest as [|c r]; [reflexivity|]. cbn [span_class]. rewrite R. reflexivity.
  - rewrite Hc, IH. reflexivity.
Qed.

Lemma split_at_e_none s : Forall (fun c => is_e c = false) s -> split_at_e s = None.
Proof. induction 1 as [|c l Hc _ IH]; cbn [split_at_e]; [reflexivity|]. rewrite Hc, IH. reflexivity. Qed.

Lemma split_at_e_app a e b :
  Forall (fun c => is_e c = false) a -> is_e e = true -> split_at_e (a ++ e :: b) = Some (a, b).
Proof.
  intros H He. induction H as [|c l Hc _ IH]; cbn [app split_at_e]; [rewrite He|rewrite Hc, IH]; reflexivity.
Qed.

Lemma fixed_body_chars neg s p : 0 <= s -> Forall plain (fixed_body false neg s p).
Proof.
  intros Hs. pose proof (pow10_pos p) as Hp.
  assert (Hi : 0 <= s / pow10 p) by (apply Z.div_pos; lia).
  apply body_plain; [apply (zdigits_spec _ Hi) | apply fixdigs_spec].
Qed.

Lemma parse_num_fixed neg s p : 0 <= s ->
  parse_num (fixed_body false neg s p) = Some ((if neg then -(1) else 1) * (inject_Z s / inject_Z (pow10 p)))%Q.
Proof.
  intros Hs. unfold parse_num.
  rewrite split_at_e_none by (apply plain_not_e, fixed_body_chars; assumption).
  exact (fixed_body_reads false neg s p 0 Hs).
Qed.

Lemma parse_exp_signed sg xd : Forall digit xd -> xd <> [] ->
  Ascii.eqb sg "-"%char || Ascii.eqb sg "+"%char = true ->
  parse_exp (sg :: dchars xd) = Some (if Ascii.eqb sg "-"%char then - dval xd else dval xd).
Proof.
  intros Fx Nx Hs. unfold parse_exp.
  destruct (Ascii.eqb sg "-"%char); [|cbn [orb] in Hs; rewrite Hs]; rewrite (span_digits_dchars_nil false xd Fx);
    (destruct xd; [congruence|]); f_equal; lia.
Qed.

(* the mantissa d[.ddd] of a scientific field, as the client's float() reads it *)
Lemma mant_parse (neg : bool) d r p : digit d -> Forall digit r -> length r = p ->
  parse_dec_chars false ((if neg then ["-"%char] else []) ++ dchars [d] ++
                         match p with O => [] | S _ => "."%char :: dchars r end)
  = Some ((if neg then -(1) else 1) * (inject_Z (dval (d :: r)) / inject_Z (pow10 p)))%Q.
Proof.
  intros Hd Hr <-.
  replace (match length r with O => [] | S _ => "."%char :: dchars r end)
    with (match r with [] => [] | f :: t => "."%char :: dchars (f :: t) end) by (destruct r; reflexivity).
  apply (parse_body_plain false neg [d] r 0); [constructor; [exact Hd | constructor] | discriminate | exact Hr].
Qed.

(* the client reads mantissa and exponent of a '10.pe' field as the digits printed *)
Lemma parse_num_sci neg m x p :
  Forall (fun c => numclass c = true) (sci_body false neg m x p) /\
  parse_num (sci_body false neg m x p) = Some (sci_value neg m x p).
Proof.
  destruct (fixdigs_spec (S p) m) as (F1 & F2 & F3).
  destruct (fixdigs (S p) m) as [|d r] eqn:Ef; [discriminate|].
  pose proof (Forall_inv F3) as Hd. pose proof (Forall_inv_tail F3) as Hr.
  assert (Hl : length r = p) by (cbn [length] in F1; lia).
  destruct (exp_chars_shape false x) as (e & sg & xd & Ee & He & Fx & Nx & Hs & Hx & _).
  pose proof (body_plain neg [d] r p (Forall_cons d Hd (Forall_nil _)) Hr) as Pm.
  unfold sci_body. rewrite Ef, Ee, app_assoc.
  change (digit_char d :: match p with O => [] | S _ => "."%char :: dchars r end)
    with (dchars [d] ++ match p with O => [] | S _ => "."%char :: dchars r end).
  split.
  - apply Forall_app. split; [apply plain_numclass, Pm|].
    constructor; [apply is_e_numclass, He|]. constructor; [apply sign_numclass, Hs|].
    apply plain_numclass, dchars_plain, Fx.
  - unfold parse_num. rewrite (split_at_e_app _ e _ (plain_not_e _ Pm) He).
    rewrite (parse_exp_signed sg xd Fx Nx Hs), Hx.
    rewrite (mant_parse neg d r p Hd Hr Hl), F2. reflexivity.
Qed.

Lemma number_chars_shape k q :
  exists j body, number_chars k (Fin q) = repeat sp j ++ body /\
                 Forall (fun c => numclass c = true) body /\ parse_num body = Some (printed k q).
Proof.
  assert (Fx : forall q, exists j body, fmt_f_chars false (Fin q) 10 2 = repeat sp j ++ body /\
                 Forall (fun c => numclass c = true) body /\ parse_num body = Some (shown q 2)).
  { intros q'. unfold fmt_f_chars, lpad. eexists. eexists. split; [reflexivity|].
    pose proof (scaled_abs_nonneg q' 2) as Hs.
    split; [apply plain_numclass, fixed_body_chars, Hs | apply parse_num_fixed, Hs]. }
  destruct k; cbn [number_chars times100 printed]; [apply Fx | | apply Fx].
  unfold fmt_e_chars, lpad, sci_shown. destruct (Qeq_bool q 0); [|destruct (sig_round q 3) as [m x]];
    eexists; eexists; (split; [reflexivity|]); apply parse_num_sci.
Qed.

Lemma parse_scan_prefix a : forall pre_rev rest,
  forallb (fun c => negb (Ascii.eqb c ":"%char)) a = true ->
  parse_scan pre_rev (a ++ rest) = parse_scan (rev a ++ pre_rev) rest.
Proof.
  induction a as [|c a IH]; intros pre_rev rest H; [reflexivity|].
  cbn [forallb] in H. apply andb_true_iff in H. destruct H as [Hc Ha].
  apply negb_true_iff in Hc. cbn [app parse_scan]. rewrite Hc. rewrite IH by exact Ha.
  cbn [rev]. rewrite <- app_assoc. reflexivity.
Qed.

Lemma no_space_skip u : no_space u = true -> skip_spaces u = u.
Proof.
  destruct u as [|c r]; [reflexivity|]. cbn [no_space forallb]. intros H.
  apply andb_true_iff in H. destruct H as [H _]. apply negb_true_iff in H. apply skip_spaces_id. exact H.
Qed.

Lemma strip_label label : label_ok_b label = true -> strip (repeat sp 6 ++ label) = label.
Proof.
  unfold label_ok_b. intros H. apply andb_true_iff in H. destruct H as [H _].
  apply andb_true_iff in H. destruct H as [H1 H2].
  unfold strip. rewrite skip_spaces_repeat.
  destruct label as [|c l]; [discriminate|]. apply negb_true_iff in H1.
  rewrite (skip_spaces_id c l H1).
  destruct (rev (c :: l)) as [|c' l'] eqn:E; [discriminate|]. apply negb_true_iff in H2.
  rewrite (skip_spaces_id c' l' H2). rewrite <- E. apply rev_involutive.
Qed.

(* the key is the text before the first ':' after which the rest of the line matches *)
Lemma parse_line_key pre post v u :
  forallb (fun c => negb (Ascii.eqb c ":"%char)) pre = true -> pre <> [] -> parse_after_colon post = Some (v, u) ->
  parse_line (pre ++ ":"%char :: post) = Some (strip pre, v, u).
Proof.
  intros Hc Hn Hp. unfold parse_line. rewrite (parse_scan_prefix _ [] _ Hc), app_nil_r.
  cbn [parse_scan]. rewrite Ascii.eqb_refl, Hp.
  destruct (rev pre) eqn:E; [|rewrite <- E, rev_involutive; reflexivity].
  apply (f_equal (@rev ascii)) in E. rewrite rev_involutive in E. contradiction.
Qed.

(* blanks, a token of the number class, a blank, a unit without blanks *)
Lemma parse_after_colon_field n body unit v :
  Forall (fun c => numclass c = true) body -> parse_num body = Some v -> no_space unit = true ->
  parse_after_colon (repeat sp (S n) ++ body ++ sp :: unit) = Some (v, unit_opt unit).
Proof.
  intros Hc Hv Hu. unfold parse_after_colon. cbn [repeat app]. change (Ascii.eqb sp sp) with true. cbv iota.
  change (sp :: repeat sp n ++ body ++ sp :: unit) with (repeat sp (S n) ++ body ++ sp :: unit).
  rewrite skip_spaces_repeat. destruct body as [|b0 br]; [discriminate Hv|].
  cbn [app]. rewrite (skip_spaces_id b0 _ (numclass_not_space b0 (Forall_inv Hc))).
  change (b0 :: br ++ sp :: unit) with ((b0 :: br) ++ sp :: unit).
  rewrite (span_class_body (b0 :: br) (sp :: unit) Hc) by reflexivity.
  change (skip_spaces (sp :: unit)) with (skip_spaces unit). rewrite (no_space_skip unit Hu), Hu, Hv. reflexivity.
Qed.

(* every line of a SUMMARY section is parsed by the client as (label, printed value, unit) *)
Lemma hip_line_parses label unit k q :
  label_ok_b label = true -> no_space unit = true ->
  parse_line (hip_line label (render k (Fin q) unit)) = Some (label, printed k q, unit_opt unit).
Proof.
  intros Hl Hu. destruct (number_chars_shape k q) as (j & body & E & Hc & Hv).
  unfold hip_line, render. rewrite E.
  (* kv_spaces is at least 1; with the padding of the number: S n blanks *)
  destruct (kv_spaces label ((repeat sp j ++ body) ++ sp :: unit)) as [|n] eqn:K;
    [unfold kv_spaces in K; lia|].
  rewrite <- (app_assoc (repeat sp j)), (app_assoc (repeat sp (S n))), <- repeat_app, (app_assoc (repeat sp 6)).
  rewrite <- (strip_label label Hl) at 2. apply parse_line_key.
  - rewrite forallb_app. unfold label_ok_b in Hl. apply andb_true_iff in Hl. apply Hl.
  - discriminate.
  - apply (parse_after_colon_field (n + j)); assumption.
Qed.

Lemma section_line_states_value rows names vals k idx kind q :
  forallb name_ok_b names = true -> forallb (fun r => fst r <? length names)%nat rows = true ->
  nth_error rows k = Some (idx, kind) -> nth idx vals (Fin 0) = Fin q ->
  exists line, nth_error (section_lines rows names vals) k = Some line /\
               parse_line line = Some (fst (name_at names idx), printed kind q, unit_opt (snd (name_at names idx))).
Proof.
  intros Hn Hi Hr Hv. unfold section_lines. exists (row_line names vals (idx, kind)).
  split; [apply map_nth_error; exact Hr|].
  unfold row_line, name_at. cbn [fst snd]. rewrite Hv.
  rewrite forallb_forall in Hn, Hi. apply nth_error_In, Hi, Nat.ltb_lt in Hr.
  specialize (Hn _ (nth_In names (EmptyString, EmptyString) Hr)).
  apply andb_true_iff in Hn. apply hip_line_parses; apply Hn.
Qed.

Lemma names_ok : forallb name_ok_b hip_out_names = true /\ forallb name_ok_b hip_in_names = true.
Proof. split; vm_compute; reflexivity. Qed.

Lemma rows_in_range dg pg :
  forallb (fun r => fst r <? length hip_out_names)%nat (result_rows dg pg) = true /\
  forallb (fun r => fst r <? length hip_in_names)%nat (input_rows dg pg) = true.
Proof. destruct dg, pg; split; reflexivity. Qed.

Open Scope Q_scope.

(* Fmt.ilog10 does return the decimal exponent: the check [sig_ok] passes on every q <> 0 *)
Lemma sig_ok_always q : ~ q == 0 -> sig_ok q = true.
Proof.
  intros Hq. destruct (ilog10_spec q Hq) as [Lo Hi]. unfold sig_ok. apply andb_true_iff. split.
  - apply Qle_bool_iff, Lo.
  - apply negb_true_iff. destruct (Qle_bool _ _) eqn:E; [|reflexivity].
    apply Qle_bool_iff in E. exfalso. apply (Qlt_irrefl (Qabs q)). eapply Qlt_le_trans; eassumption.
Qed.

(* what a '10.pe' field shows is within half a unit of the last of its p+1 significant digits *)
Lemma sci_shown_close q p : ~ q == 0 -> Qabs (sci_shown q p - q) <= (1#2) * Qpow10 (ilog10 q - Z.of_nat p).
Proof.
  intros Hq. unfold sci_shown. destruct (Qeq_bool q 0) eqn:E0; [apply Qeq_bool_iff in E0; contradiction|].
  destruct (sig_round q (S p)) as [m x] eqn:E.
  destruct (sig_round_close q (S p) Hq ltac:(lia) m x E) as ([M1 M2] & C).
  replace (x - Z.of_nat (S p) + 1)%Z with (x - Z.of_nat p)%Z in C by lia.
  replace (ilog10 q - Z.of_nat (S p) + 1)%Z with (ilog10 q - Z.of_nat p)%Z in C by lia.
  pose proof (pow10_pos (S p - 1)).
  unfold sci_value. rewrite Z.mod_small, <- Qmult_assoc by lia.
  (* d.ddd x 10^x is the integer m in units of 10^(x-p) *)
  rewrite (sci_digits_value m x p), Qabs_signed. exact C.
Qed.
