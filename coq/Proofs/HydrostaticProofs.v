(* Proofs/HydrostaticProofs.v - lemmas about Model/Hydrostatic.v.
   Every division in the model is by a numeral, so each closed form is linear arithmetic once [/ c] is read as the
   numeral it computes to; the facts that follow take the closed forms as hypotheses of [lra] / [nra]. *)
From Coq Require Import QArith Qabs List ZArith Bool Lia Lqa.
From Verif Require Import Base.Flat Proofs.FlatFacts Model.Hydrostatic.
Import ListNotations.
Open Scope Q_scope.

Lemma static_closed rho depth : static_pressure_MPa rho depth == (980665 # 100000000000) * (rho * depth).
Proof. unfold static_pressure_MPa, g_std, Qdiv. change (/ 1000000) with (1 # 1000000). lra. Qed.

Lemma static_pos rho depth : 0 < rho -> 0 < depth -> 0 < static_pressure_MPa rho depth.
Proof. intros Hr Hd. pose proof (static_closed rho depth). nra. Qed.

Lemma static_mono rho d1 d2 : 0 <= rho -> d1 <= d2 -> static_pressure_MPa rho d1 <= static_pressure_MPa rho d2.
Proof. intros Hr Hd. pose proof (static_closed rho d1). pose proof (static_closed rho d2). nra. Qed.

Lemma static_strict rho d1 d2 : 0 < rho -> d1 < d2 -> static_pressure_MPa rho d1 < static_pressure_MPa rho d2.
Proof. intros Hr Hd. pose proof (static_closed rho d1). pose proof (static_closed rho d2). nra. Qed.

Lemma static_additive rho d1 d2 :
  static_pressure_MPa rho (d1 + d2) == static_pressure_MPa rho d1 + static_pressure_MPa rho d2.
Proof. pose proof (static_closed rho d1). pose proof (static_closed rho d2). pose proof (static_closed rho (d1 + d2)). lra. Qed.

Lemma static_density_mono r1 r2 depth : 0 <= depth -> r1 <= r2 -> static_pressure_MPa r1 depth <= static_pressure_MPa r2 depth.
Proof. intros Hd Hr. pose proof (static_closed r1 depth). pose proof (static_closed r2 depth). nra. Qed.

(* the exponent: c * rho * depth * (1 - ct*grad/2 * depth) *)
Definition hydro_c : Q := (981 # 100) * CP / 1000.

Lemma hydro_c_pos : 0 < hydro_c.
Proof. reflexivity. Qed.

Lemma hydro_arg_closed rho ct grad depth :
  hydro_arg rho ct grad depth == hydro_c * (rho * (depth * (1 - (1 # 2) * (ct * grad) * depth))).
Proof.
  unfold hydro_arg, hydro_c, Qdiv. change (/ 1000) with (1 # 1000). change (/ 2) with (1 # 2).
  generalize CP. intros c. lra. 
Qed.

Lemma hydro_arg_pos rho ct grad depth :
  0 < rho -> 0 < depth -> ct * grad * depth < 2 -> 0 < hydro_arg rho ct grad depth.
Proof.
  intros Hr Hd Hc. rewrite hydro_arg_closed.
  apply Qmult_lt_0_compat; [apply hydro_c_pos|]. apply Qmult_lt_0_compat; [exact Hr|].
  apply Qmult_lt_0_compat; [exact Hd|lra].
Qed.

(* a parabola d (1 - h d) rises up to its vertex 1/(2h) *)
Lemma parabola_mono h d1 d2 :
  0 <= d1 -> d1 <= d2 -> h * d2 <= 1 # 2 -> d1 * (1 - h * d1) <= d2 * (1 - h * d2).
Proof.
  intros H1 H12 Hv. assert (h * d1 <= 1 # 2) by (destruct (Qlt_le_dec h 0); nra). nra.
Qed.

Lemma hydro_arg_mono rho ct grad d1 d2 :
  0 <= rho -> 0 <= d1 -> d1 <= d2 -> ct * grad * d2 <= 1 ->
  hydro_arg rho ct grad d1 <= hydro_arg rho ct grad d2.
Proof.
  intros Hr H1 H12 Hv.
  pose proof (hydro_arg_closed rho ct grad d1). pose proof (hydro_arg_closed rho ct grad d2).
  assert (P : d1 * (1 - (1 # 2) * (ct * grad) * d1) <= d2 * (1 - (1 # 2) * (ct * grad) * d2))
    by (apply parabola_mono; lra).
  pose proof (Qmult_le_compat_r _ _ _ (Qmult_le_compat_r _ _ _ P Hr) (Qlt_le_weak _ _ hydro_c_pos)). lra.
Qed.

(* beyond the vertex the exponent - hence the modelled pressure - DEcreases with depth: what the code does *)
Lemma hydro_arg_not_monotone :
  exists rho ct grad d1 d2, 0 < rho /\ 0 < ct /\ 0 < grad /\ 0 < d1 /\ d1 < d2 /\
    hydro_arg rho ct grad d2 < hydro_arg rho ct grad d1.
Proof.
  exists 1000, (5 # 10000), 50, 40, 80. do 5 (split; [reflexivity|]). vm_compute. reflexivity.
Qed.

Lemma hydro_of_exp_lin e : hydro_of_exp e == (1000000000 # 464) * (e - 1).
Proof. unfold hydro_of_exp. change (1 / CP) with (1000000000 # 464). lra. Qed.

Lemma hydro_of_exp_closed e : hydro_of_exp e == (e - 1) / CP.
Proof. rewrite hydro_of_exp_lin. unfold Qdiv. change (/ CP) with (1000000000 # 464). lra. Qed.

Lemma hydro_of_exp_mono e1 e2 : e1 <= e2 -> hydro_of_exp e1 <= hydro_of_exp e2.
Proof. intros H. pose proof (hydro_of_exp_lin e1). pose proof (hydro_of_exp_lin e2). lra. Qed.

Lemma hydro_of_exp_pos e : 1 < e -> 0 < hydro_of_exp e.
Proof. intros H. pose proof (hydro_of_exp_lin e). lra. Qed.

(* the exponent divided by CP is the linear column with the temperature correction *)
Lemma hydro_arg_column rho ct grad depth :
  (1000000000 # 464) * hydro_arg rho ct grad depth == rho * (981 # 100) / 1000 * (depth - ct / 2 * grad * (depth * depth)).
Proof.
  unfold hydro_arg, CP, Qdiv. change (/ 1000) with (1 # 1000). change (/ 2) with (1 # 2). lra.
Qed.
