(* Proofs/IrrProofs.v - the internal rate of return of a conventional cash flow is unique (C04):
   for a series made of non-positive years (with at least one strictly negative) followed by non-negative years,
   NPV(r) x (1+r)^k is strictly decreasing in r on r > -1, so at most one rate zeroes the NPV.  Defines nonpos, in which C04_irr_unique is stated. *)
From Coq Require Import QArith Qabs Qpower Qfield List ZArith Bool Lia Lqa.
From Verif Require Import Base.Flat Model.CashFlow Model.Lcoe Proofs.CashFlowProofs Proofs.LcoeProofs Proofs.ScalingProofs.
Import ListNotations.
Open Scope Q_scope.

(* NPV as a function of x = 1 + r *)
Definition npvx (x : Q) (cf : list Q) : Q := npv (x - 1) cf.
Lemma npvx_cons x c l : npvx x (c :: l) == c + npvx x l / x.
Proof. unfold npvx. simpl. assert (H : 1 + (x - 1) == x) by ring. now rewrite H. Qed.
Lemma npvx_nil x : npvx x [] == 0.
Proof. reflexivity. Qed.

Lemma qpow_pos x n : 0 < x -> 0 < qpow x n.
Proof. apply Qpower_0_lt. Qed.
Lemma qpow_mono x y n : 0 < x -> x <= y -> qpow x n <= qpow y n.
Proof.
  intros Hx Hxy. induction n as [|n IH]; [apply Qle_refl|]. rewrite !qpow_S.
  pose proof (qpow_pos x n Hx). assert (0 < y) by lra. pose proof (qpow_pos y n H0). nra.
Qed.
Lemma qpow_strict x y n : 0 < x -> x < y -> qpow x (S n) < qpow y (S n).
Proof.
  intros Hx Hxy. rewrite !qpow_S. pose proof (qpow_mono x y n Hx (Qlt_le_weak _ _ Hxy)).
  pose proof (qpow_pos x n Hx). nra.
Qed.

(* pnpv x l = x^|l| * NPV_x(l) = sum_t l_t x^(|l| - t): the NPV with the powers of x cleared *)
Definition pnpv (x : Q) (l : list Q) : Q := qpow x (length l) * npvx x l.
Lemma pnpv_cons x c l : 0 < x -> pnpv x (c :: l) == c * qpow x (S (length l)) + pnpv x l.
Proof.
  intros Hx. unfold pnpv. cbn [length]. rewrite npvx_cons, qpow_S. field. lra.
Qed.

Definition nonpos (l : list Q) : Prop := Forall (fun c => c <= 0) l.

Lemma pnpv_antitone x y : 0 < x -> x <= y -> forall l, nonpos l -> pnpv y l <= pnpv x l.
Proof.
  intros Hx Hxy l Hl. assert (Hy : 0 < y) by lra. induction Hl as [|c l Hc _ IH].
  - unfold pnpv. cbn [length]. rewrite (npvx_nil x), (npvx_nil y).
    assert (E : forall a, a * 0 == 0) by (intros; ring). rewrite (E (qpow x 0)), (E (qpow y 0)). apply Qle_refl.
  - rewrite !pnpv_cons by assumption. pose proof (qpow_mono x y (S (length l)) Hx Hxy) as Hm.
    set (a := qpow x (S (length l))) in *. set (b := qpow y (S (length l))) in *.
    nra.
Qed.

Lemma pnpv_strict x y : 0 < x -> x < y -> forall l, nonpos l -> Exists (fun c => c < 0) l -> pnpv y l < pnpv x l.
Proof.
  intros Hx Hxy l Hl Hex. assert (Hy : 0 < y) by lra.
  induction Hl as [|c l Hc Hl IH]; [inversion Hex|].
  rewrite !pnpv_cons by assumption.
  pose proof (qpow_strict x y (length l) Hx Hxy) as Hs.
  pose proof (pnpv_antitone x y Hx (Qlt_le_weak _ _ Hxy) l Hl) as Ha.
  set (a := qpow x (S (length l))) in *. set (b := qpow y (S (length l))) in *.
  inversion Hex as [? ? Hneg | ? ? Hex']; subst.
  - nra.
  - specialize (IH Hex'). nra.
Qed.

Lemma npvx_nonneg x : 0 < x -> forall l, nonneg l -> 0 <= npvx x l.
Proof.
  intros Hx l Hl. induction Hl as [|c l Hc _ IH]; [rewrite (npvx_nil x); lra|].
  rewrite npvx_cons. assert (0 <= npvx x l / x) by (apply Qle_shift_div_l; lra). lra.
Qed.

Lemma npvx_pos_antitone x y : 0 < x -> x <= y -> forall l, nonneg l -> npvx y l <= npvx x l.
Proof.
  intros Hx Hxy l Hl. assert (Hy : 0 < y) by lra. induction Hl as [|c l Hc Hl IH]; [rewrite (npvx_nil x), (npvx_nil y); lra|].
  rewrite !npvx_cons. pose proof (npvx_nonneg y Hy l Hl) as H0.
  assert (npvx y l / y <= npvx x l / x).
  { apply Qle_shift_div_l; [assumption|]. unfold Qdiv. rewrite <- Qmult_assoc, (Qmult_comm (/ y)), Qmult_assoc.
    apply Qle_shift_div_r; [assumption|]. nra. }
  lra.
Qed.

Lemma npvx_app x : 0 < x -> forall a b, npvx x (a ++ b) == npvx x a + npvx x b / qpow x (length a).
Proof.
  intros Hx. induction a as [|c a IH]; intros b.
  - cbn [app length]. rewrite (npvx_nil x). unfold qpow. simpl. field.
  - cbn [app length]. rewrite !npvx_cons, IH, qpow_S. pose proof (qpow_pos x (length a) Hx). field. split; lra.
Qed.

(* x^k * NPV_x(neg ++ pos) = pnpv x neg + NPV_x(pos), k = |neg| *)
Lemma scaled_npv x neg pos : 0 < x -> qpow x (length neg) * npvx x (neg ++ pos) == pnpv x neg + npvx x pos.
Proof.
  intros Hx. rewrite npvx_app by assumption. unfold pnpv. pose proof (qpow_pos x (length neg) Hx). field. lra.
Qed.

Theorem scaled_npv_strictly_decreasing x y neg pos : 0 < x -> x < y ->
  nonpos neg -> Exists (fun c => c < 0) neg -> nonneg pos ->
  qpow y (length neg) * npvx y (neg ++ pos) < qpow x (length neg) * npvx x (neg ++ pos).
Proof.
  intros Hx Hxy Hn Hex Hp. assert (Hy : 0 < y) by lra.
  rewrite !scaled_npv by assumption.
  pose proof (pnpv_strict x y Hx Hxy neg Hn Hex). pose proof (npvx_pos_antitone x y Hx (Qlt_le_weak _ _ Hxy) pos Hp). lra.
Qed.

Theorem irr_unique r1 r2 neg pos : 0 < 1 + r1 -> 0 < 1 + r2 ->
  nonpos neg -> Exists (fun c => c < 0) neg -> nonneg pos ->
  npv r1 (neg ++ pos) == 0 -> npv r2 (neg ++ pos) == 0 -> r1 == r2.
Proof.
  intros H1 H2 Hn Hex Hp Z1 Z2.
  assert (E : forall r, npv r (neg ++ pos) == 0 -> npvx (1 + r) (neg ++ pos) == 0).
  { intros r Z. unfold npvx. now setoid_replace (1 + r - 1) with r by ring. }
  apply E in Z1 as E1. apply E in Z2 as E2.
  destruct (Q_dec (1 + r1) (1 + r2)) as [[Hlt | Hgt] | Heq].
  - pose proof (scaled_npv_strictly_decreasing (1 + r1) (1 + r2) neg pos H1 Hlt Hn Hex Hp) as Hs.
    rewrite E1, E2 in Hs. lra.
  - pose proof (scaled_npv_strictly_decreasing (1 + r2) (1 + r1) neg pos H2 Hgt Hn Hex Hp) as Hs.
    rewrite E1, E2 in Hs. lra.
  - lra.
Qed.

(* every construction year carries -CCap/cy: strictly negative when capital cost is positive *)
Lemma capex_year_neg c : 0 < ci_ccap c -> (1 <= ci_cy c)%nat -> capex_year c < 0.
Proof.
  intros Hc Hcy. unfold capex_year.
  pose proof (natQ_pos (ci_cy c) Hcy).
  assert (0 < ci_ccap c / natQ (ci_cy c)) by (apply Qlt_shift_div_l; lra). lra.
Qed.
