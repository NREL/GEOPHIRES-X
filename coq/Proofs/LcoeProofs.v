(* Proofs/LcoeProofs.v - the numpy-vector transcription of the levelized-cost code equals the documented
   closed forms, for every lifetime and every series (C01); homogeneity and monotonicity (C11, C18) build on it.
   The file opens with the definitions in which the statements of Props/C01.v are written. *)
From Coq Require Import QArith Qpower Qfield List ZArith Bool Lia.
From Verif Require Import Base.Flat Model.CashFlow Model.Lcoe Proofs.CashFlowProofs.
Import ListNotations.
Open Scope Q_scope.

(* componentwise == on (LCOE, LCOH, LCOC) *)
Definition teq (a b : Q * Q * Q) : Prop :=
  fst (fst a) == fst (fst b) /\ snd (fst a) == snd (fst b) /\ snd a == snd b.

(* every series the selected branch reads has one entry per year *)
Definition wf_l (c : lc_in) : Prop :=
  let need (l : list Q) := length l = l_life c in
  match classify (l_enduse c) (l_plant c) with
  | LElec => need (l_net c)
  | LHeat => need (l_heat c) /\ need (l_pump c)
  | LCogen => need (l_net c) /\ need (l_heat c) /\ need (l_pump c)
  | LChiller => need (l_cool c) /\ need (l_pump c)
  | LHeatPump => need (l_heat c) /\ need (l_pump c) /\ need (l_hp c)
  | LDistrict => need (l_pump c) /\ need (l_ng c)
  | LNone => True
  end.

(* sum_i x_i q^(t+i); the BICYCLE sums of C01 are the case t = 1 *)
Fixpoint geo_sigma_from (q : Q) (t : nat) (l : list Q) : Q :=
  match l with [] => 0 | x :: r => x * qpow q t + geo_sigma_from q (S t) r end.

(* the branch selected for every documented end-use option and plant type (finite: 8 x 9 cells) *)
Definition enduses : list Z := [1; 2; 31; 32; 41; 42; 51; 52]%Z.
Definition plants : list Z := [1; 2; 3; 4; 5; 6; 7; 8; 9]%Z.
Definition documented_kind (enduse plant : Z) : lkind :=
  match enduse with
  | 1%Z => LElec
  | 2%Z => match plant with 5%Z => LChiller | 6%Z => LHeatPump | 7%Z => LDistrict | _ => LHeat end
  | _ => LCogen
  end.

Lemma qpow_S b t : qpow b (S t) == qpow b t * b.
Proof. apply Qpower_succ. Qed.
Lemma qpow_0 b : qpow b 0 == 1.
Proof. reflexivity. Qed.
Lemma qpow_1 b : qpow b 1 == b.
Proof. unfold qpow. simpl. reflexivity. Qed.

Lemma inv_qpow_S b t : / qpow b (S t) == / qpow b t * / b.
Proof. rewrite qpow_S. apply Qinv_mult_distr. Qed.

Lemma powvec_length b s n : length (powvec b s n) = n.
Proof. unfold powvec. now rewrite map_length, seq_length. Qed.
Lemma invvec_powvec b s n : invvec (powvec b s n) = map (fun t => / qpow b t) (seq s n).
Proof. unfold invvec, powvec. now rewrite map_map. Qed.

Lemma sumQ_geo0 l : sumQ l == geo0 1 l.
Proof. induction l as [|x l IH]; cbn [sumQ geo0]; [reflexivity | rewrite IH; ring]. Qed.

Lemma geo0_const_sigma q x : forall n, geo0 q (repeat x n) == x * geo0 q (ones n).
Proof. induction n as [|n IH]; cbn [ones repeat geo0]; [ring|]. fold (ones n). rewrite IH. ring. Qed.

(* a scalar broadcasts like the constant series *)
Lemma smul_vmul k v n : length v = n -> smul k v = vmul (repeat k n) v.
Proof. intros <-. unfold smul, vmul. induction v as [|x v IH]; simpl; congruence. Qed.

(* weighting a series by h s, h (s+1), ... with h (t+1) = h t * r multiplies the ratio of its Horner sum by r *)
Lemma geo0_weight (h : nat -> Q) r q q' : (forall t, h (S t) == h t * r) -> q' == r * q ->
  forall l s n, length l = n -> geo0 q (vmul l (map h (seq s n))) == h s * geo0 q' l.
Proof.
  intros Hh Hq. induction l as [|x l IH]; intros s n <-; cbn [length seq map vmul map2 geo0]; [ring|].
  fold (vmul l (map h (seq (S s) (length l)))). rewrite (IH (S s) _ eq_refl), Hh.
  (* q' is also the ratio inside geo0 q' l, where == cannot be rewritten *)
  set (G := geo0 q' l). rewrite Hq. ring.
Qed.

(* sum_t l_t / b^t and sum_t l_t g^t / b^t over t = s .. s+n-1; for s = 1 the factor in front computes to the ratio *)
Lemma disc_sum b l s n : length l = n ->
  sumQ (vmul l (invvec (powvec b s n))) == / qpow b s * geo0 (/ b) l.
Proof.
  intros Hl. rewrite sumQ_geo0, invvec_powvec.
  apply (geo0_weight (fun t => / qpow b t) (/ b)); [apply inv_qpow_S | ring | exact Hl].
Qed.

Lemma infl_disc_sum g b l s n : length l = n ->
  sumQ (vmul (vmul l (powvec g s n)) (invvec (powvec b s n))) == qpow g s * / qpow b s * geo0 (g / b) l.
Proof.
  intros Hl. rewrite sumQ_geo0, invvec_powvec.
  rewrite (geo0_weight (fun t => / qpow b t) (/ b) 1 (/ b)); [| apply inv_qpow_S | ring |].
  - unfold powvec. rewrite (geo0_weight (qpow g) g (/ b) (g / b)); [ring | apply qpow_S | reflexivity | exact Hl].
  - unfold vmul. rewrite map2_length; rewrite ?powvec_length; congruence.
Qed.

Lemma std_sum c l : length l = l_life c ->
  sumQ (vmul l (std_dv c)) == geo0 (/ (1 + l_disc c)) l.
Proof. intros Hl. unfold std_dv. rewrite (disc_sum _ _ _ _ Hl), qpow_0. field. Qed.

Lemma std_num_eq c cap annual : length annual = l_life c -> std_num c cap annual == std_num_spec c cap annual.
Proof. intros H. unfold std_num, std_num_spec. now rewrite std_sum. Qed.
Lemma std_den_eq c energy : length energy = l_life c -> std_den c energy == std_den_spec c energy.
Proof. intros H. unfold std_den, std_den_spec. now apply std_sum. Qed.

Lemma bic_infl_length c : length (bic_infl c) = l_life c.
Proof. apply powvec_length. Qed.
Lemma bic_dv_length c : length (bic_dv c) = l_life c.
Proof. unfold bic_dv, invvec. rewrite map_length. apply powvec_length. Qed.

Lemma geo1_const_sigma q x n : geo1 q (repeat x n) == x * geo1 q (ones n).
Proof. unfold geo1. rewrite geo0_const_sigma. ring. Qed.

Lemma bic_disc_sum c l : length l = l_life c -> sumQ (vmul l (bic_dv c)) == geo1 (bic_qd c) l.
Proof. intros Hl. exact (disc_sum (1 + iave c) l 1 (l_life c) Hl). Qed.

Lemma bic_infl_disc_sum c l : length l = l_life c ->
  sumQ (vmul (vmul l (bic_infl c)) (bic_dv c)) == geo1 (bic_qg c) l.
Proof. intros Hl. exact (infl_disc_sum (1 + l_rinfl c) (1 + iave c) l 1 (l_life c) Hl). Qed.

Lemma bic_disc_sum_const c k : sumQ (smul k (bic_dv c)) == k * geo1 (bic_qd c) (ones (l_life c)).
Proof.
  rewrite (smul_vmul k _ _ (bic_dv_length c)), bic_disc_sum by apply repeat_length. apply geo1_const_sigma.
Qed.

Lemma bic_infl_disc_sum_const c k :
  sumQ (vmul (smul k (bic_infl c)) (bic_dv c)) == k * geo1 (bic_qg c) (ones (l_life c)).
Proof.
  rewrite (smul_vmul k _ _ (bic_infl_length c)), bic_infl_disc_sum by apply repeat_length. apply geo1_const_sigma.
Qed.

(* the four present values enter through their sum only *)
Lemma bic_combine_factor c cap a b d e :
  bic_combine c cap a b d e
  == (1 + l_gtr c / (1 - l_gtr c)) * (a + e + b + d - (1 + l_inflc c) * cap * l_ritc c / (1 - l_ctr c)).
Proof. unfold bic_combine. cbv zeta. ring. Qed.

Lemma bic_combine_ext c cap a a' b b' d d' e e' : a == a' -> b == b' -> d == d' -> e == e' ->
  bic_combine c cap a b d e == bic_combine c cap a' b' d' e'.
Proof. intros Ha Hb Hd He. rewrite !bic_combine_factor, Ha, Hb, Hd, He. reflexivity. Qed.

Lemma bic_num_eq c cap annual : length annual = l_life c -> bic_num c cap annual == bic_num_spec c cap annual.
Proof.
  intros H. unfold bic_num, bic_num_spec. cbv zeta. apply bic_combine_ext;
    [apply bic_disc_sum_const | apply bic_infl_disc_sum_const | apply bic_disc_sum_const | now apply bic_infl_disc_sum].
Qed.
Lemma bic_den_eq c energy : length energy = l_life c -> bic_den c energy == bic_den_spec c energy.
Proof. intros H. unfold bic_den, bic_den_spec. now apply bic_infl_disc_sum. Qed.

Lemma teq_mk a b c a' b' c' : a == a' -> b == b' -> c == c' -> teq (a, b, c) (a', b', c').
Proof. intros. unfold teq. simpl. auto. Qed.

Lemma lens_ok_l_wf c : lens_ok_l c = true -> wf_l c.
Proof.
  unfold lens_ok_l, wf_l. destruct (classify (l_enduse c) (l_plant c)); cbv beta zeta; intros H;
    repeat (apply andb_prop in H; destruct H as [H ?]); repeat split; now apply Nat.eqb_eq.
Qed.

(* two sets of levelizers that agree on series of one entry per year give the same levelized costs *)
Definition lev_agree (L1 L2 : levelizers) (c : lc_in) : Prop :=
  (forall cap l, length l = l_life c -> L_std_num L1 c cap l == L_std_num L2 c cap l) /\
  (forall l, length l = l_life c -> L_std_den L1 c l == L_std_den L2 c l) /\
  (forall cap l, length l = l_life c -> L_bic_num L1 c cap l == L_bic_num L2 c cap l) /\
  (forall l, length l = l_life c -> L_bic_den L1 c l == L_bic_den L2 c l).

(* one levelized cost under each economic model *)
Section Lev.
Variables (L : levelizers) (c : lc_in) (cap om xs : Q) (a_std a_bic : list Q) (avgE : Q) (energy : list Q) (unit : Q).
Lemma lev_fcr : l_econ c = 1%Z ->
  lev L c cap om xs a_std a_bic avgE energy unit = fcr_num c cap om xs / avgE * unit.
Proof. intros H. unfold lev. now rewrite H. Qed.
Lemma lev_std : l_econ c = 2%Z ->
  lev L c cap om xs a_std a_bic avgE energy unit = L_std_num L c cap a_std / L_std_den L c energy * unit.
Proof. intros H. unfold lev. now rewrite H. Qed.
Lemma lev_bic : l_econ c <> 1%Z -> l_econ c <> 2%Z ->
  lev L c cap om xs a_std a_bic avgE energy unit = L_bic_num L c cap a_bic / L_bic_den L c energy * unit.
Proof. intros H1 H2. unfold lev. apply Z.eqb_neq in H1, H2. now rewrite H1, H2. Qed.
End Lev.

Lemma lev_pointwise L1 L2 c cap om xs a_std a_bic avgE energy unit :
  L_std_num L1 c cap a_std == L_std_num L2 c cap a_std -> L_std_den L1 c energy == L_std_den L2 c energy ->
  L_bic_num L1 c cap a_bic == L_bic_num L2 c cap a_bic -> L_bic_den L1 c energy == L_bic_den L2 c energy ->
  lev L1 c cap om xs a_std a_bic avgE energy unit == lev L2 c cap om xs a_std a_bic avgE energy unit.
Proof.
  intros Hsn Hsd Hbn Hbd.
  destruct (Z.eq_dec (l_econ c) 1) as [E1|E1]; [now rewrite !lev_fcr|].
  destruct (Z.eq_dec (l_econ c) 2) as [E2|E2].
  - rewrite !lev_std by assumption. now rewrite Hsn, Hsd.
  - rewrite !lev_bic by assumption. now rewrite Hbn, Hbd.
Qed.

(* the series that lcoe_gen builds have one entry per year when those it reads have *)
Lemma const_series_length c x : length (const_series c x) = l_life c.
Proof. apply repeat_length. Qed.
Lemma sadd_length k v n : length v = n -> length (sadd k v) = n.
Proof. intros <-. apply map_length. Qed.
Lemma cost_series_length c v n : length v = n -> length (cost_series c v) = n.
Proof. intros <-. apply map_length. Qed.
Lemma vadd_length a b n : length a = n -> length b = n -> length (vadd a b) = n.
Proof. intros <- H. now apply map2_length. Qed.
#[local] Hint Resolve const_series_length sadd_length cost_series_length vadd_length : len.

Lemma lcoe_gen_ext L1 L2 c : wf_l c -> lev_agree L1 L2 c -> teq (lcoe_gen L1 c) (lcoe_gen L2 c).
Proof.
  intros Hwf (Hsn & Hsd & Hbn & Hbd). unfold lcoe_gen, wf_l in *. cbv zeta in *.
  (* in every branch a component is 0 on both sides or one lev on both sides, over series that lcoe_gen builds
     from those wf_l speaks of: their lengths are what the hints of [len] give *)
  destruct (classify (l_enduse c) (l_plant c)); decompose [and] Hwf;
    apply teq_mk; try reflexivity; apply lev_pointwise; auto with len.
Qed.

Lemma vec_spec_agree c : lev_agree vec_levelizers spec_levelizers c.
Proof.
  repeat apply conj; simpl; intros.
  - now apply std_num_eq.
  - now apply std_den_eq.
  - now apply bic_num_eq.
  - now apply bic_den_eq.
Qed.

Theorem lcoe_code_is_spec c : wf_l c -> teq (lcoe_code c) (lcoe_spec c).
Proof. intros H. apply lcoe_gen_ext; [assumption | apply vec_spec_agree]. Qed.

(* the executed form only reduces fractions: equal to the documented form for all series, of any length *)
Lemma lev_exec_spec c cap om xs a_std a_bic avgE energy unit :
  lev exec_levelizers c cap om xs a_std a_bic avgE energy unit == lev spec_levelizers c cap om xs a_std a_bic avgE energy unit.
Proof.
  apply lev_pointwise; cbn [exec_levelizers spec_levelizers L_std_num L_std_den L_bic_num L_bic_den]; unfold geo0r, geo1r.
  - unfold std_num_spec. now rewrite !Qred_correct.
  - apply Qred_correct.
  - cbv zeta. rewrite Qred_correct. unfold bic_num_spec, bic_it_coeff. cbv zeta.
    apply bic_combine_ext; now rewrite !Qred_correct.
  - apply Qred_correct.
Qed.

Theorem lcoe_exec_is_spec c : teq (lcoe_exec c) (lcoe_spec c).
Proof.
  unfold lcoe_exec, lcoe_spec, lcoe_gen. cbv zeta.
  destruct (classify (l_enduse c) (l_plant c)); apply teq_mk; try reflexivity; apply lev_exec_spec.
Qed.

Lemma geo0_is_discounted_sum d l : geo0 (/ (1 + d)) l == npv d l.
Proof. induction l as [|x l IH]; cbn [geo0 npv]; [reflexivity|]. rewrite IH. unfold Qdiv. ring. Qed.

Lemma geo0_is_npv_sigma d l : ~ 1 + d == 0 -> geo0 (/ (1 + d)) l == npv_sigma_from d 0 l.
Proof. intros H. rewrite geo0_is_discounted_sum. now apply npv_is_discounted_sum. Qed.

Lemma geo_sigma_from_geo0 q : forall l t, geo_sigma_from q t l == qpow q t * geo0 q l.
Proof.
  induction l as [|x l IH]; intros t; cbn [geo_sigma_from geo0]; [ring|]. rewrite IH, qpow_S. ring.
Qed.
Lemma geo1_is_geo_sigma q l : geo1 q l == geo_sigma_from q 1 l.
Proof. rewrite geo_sigma_from_geo0, qpow_1. reflexivity. Qed.

Lemma geo0_map_scale q k : forall l, geo0 q (map (fun e => e * k) l) == k * geo0 q l.
Proof. induction l as [|x l IH]; cbn [map geo0]; [ring|]. rewrite IH. ring. Qed.

(* a levelized cost num / den * 1e8 is in cents per kWh when the energy is in kWh and the costs are in M$: selling every
   year's energy at that price recovers, in present value at the ratio q, exactly the numerator ... *)
Lemma discounted_price_recovers q l num : ~ geo0 q l == 0 ->
  geo0 q (map (fun e => e * (num / geo0 q l * e8 / 100 / 1000000)) l) == num.
Proof. intros H. rewrite geo0_map_scale. unfold e8. field. exact H. Qed.

(* ... and with the average yearly energy as denominator, the average yearly revenue is the numerator *)
Lemma average_price_recovers l num : ~ sumQ l == 0 -> ~ natQ (length l) == 0 ->
  avg l * (num / (sumQ l / natQ (length l)) * e8 / 100 / 1000000) == num.
Proof. intros Hs Hn. unfold avg, e8. field. split; assumption. Qed.
