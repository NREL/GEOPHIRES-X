(* Proofs/MCRowsProofs.v - about Model/MCRows.v, for C14: the words of the statements that the model does not define
   (just below); facts about strip, split, the search for ", (" and the removal of parentheses on strings made of clean
   tokens, up to the shape of an assembled row and the tokens read back from it; the lines of an iteration's input file;
   the row tokens as the found outputs in order. *)
From Coq Require Import List Arith Bool String Ascii Lia.
From Verif Require Import Model.MCRows.
Import ListNotations.
Open Scope string_scope.

(* a sampled 'name, value' line that a new line cannot break *)
Definition no_nl (s : string) : bool := all_chars (fun a => negb (Ascii.eqb a NLc)) s.

(* whether get_output finds the output in the report (exactly one matching line), and the token it then returns *)
Definition found (lines : list string) (o : string) : bool :=
  match find_output o lines with Some _ => true | None => false end.
Definition value_of (lines : list string) (o : string) : string :=
  match find_output o lines with Some t => t | None => "" end.

(* the rows of the result file, in the order of the appends, as a function of which iterations succeed (sim t = None:
   iteration t failed) *)
Definition result_rows {A} (sim : nat -> option A) (order : list nat) : list (nat * A) :=
  flat_map (fun t => match sim t with Some r => [(t, r)] | None => [] end) order.

Lemma app_assoc_s a b c : (a ++ b) ++ c = a ++ (b ++ c).
Proof. induction a as [|x a IH]; cbn; [reflexivity | rewrite IH; reflexivity]. Qed.

Lemma app_nil_r_s a : a ++ "" = a.
Proof. induction a as [|x a IH]; cbn; [reflexivity | rewrite IH; reflexivity]. Qed.

Lemma all_chars_app f a b : all_chars f (a ++ b) = all_chars f a && all_chars f b.
Proof. induction a as [|x a IH]; cbn; [reflexivity | rewrite IH, andb_assoc; reflexivity]. Qed.

Lemma all_chars_impl (f g : ascii -> bool) s : (forall c, f c = true -> g c = true) -> all_chars f s = true -> all_chars g s = true.
Proof.
  intros H. induction s as [|x s IH]; cbn; [reflexivity|]. intros E. apply andb_true_iff in E. destruct E as [E1 E2].
  rewrite (H _ E1), (IH E2). reflexivity.
Qed.

Lemma clean_char_spec c : clean_char c = true ->
  is_ws c = false /\ c <> ","%char /\ c <> "("%char /\ c <> ")"%char.
Proof.
  unfold clean_char. intros H. repeat (apply andb_true_iff in H; destruct H as [H ?]).
  repeat match goal with E : negb _ = true |- _ => apply negb_true_iff in E end.
  repeat split; try assumption; apply Ascii.eqb_neq; assumption.
Qed.

Lemma lstrip_by_head f c r : f c = false -> lstrip_by f (String c r) = String c r.
Proof. intros H. cbn. rewrite H. reflexivity. Qed.

Lemma rstrip_by_app_last f s c : f c = false -> rstrip_by f (s ++ String c "") = s ++ String c "".
Proof.
  intros H. induction s as [|x s IH]; cbn [append rstrip_by].
  - rewrite H. reflexivity.
  - rewrite IH. destruct s; reflexivity.
Qed.

Lemma rstrip_by_all f w : all_chars f w = true -> rstrip_by f w = "".
Proof.
  induction w as [|x w IH]; cbn; [reflexivity|]. intros E. apply andb_true_iff in E. destruct E as [E1 E2].
  rewrite (IH E2), E1. reflexivity.
Qed.

Lemma rstrip_by_app_ws f s w : all_chars f w = true -> rstrip_by f (s ++ w) = rstrip_by f s.
Proof.
  intros H. induction s as [|x s IH]; cbn [append rstrip_by]; [apply rstrip_by_all; exact H | rewrite IH; reflexivity].
Qed.

Lemma rstrip_by_none f s : all_chars (fun c => negb (f c)) s = true -> rstrip_by f s = s.
Proof.
  induction s as [|x s IH]; cbn; [reflexivity|]. intros E. apply andb_true_iff in E. destruct E as [E1 E2].
  apply negb_true_iff in E1. rewrite (IH E2). destruct s; [rewrite E1|]; reflexivity.
Qed.

Definition no_ws (s : string) : bool := all_chars (fun c => negb (is_ws c)) s.

Lemma clean_token_chars t : clean_token t = true -> t <> "" /\ all_chars clean_char t = true.
Proof. destruct t; cbn [clean_token]; [discriminate|]. intros H. split; [discriminate | exact H]. Qed.

Lemma clean_no_ws t : all_chars clean_char t = true -> no_ws t = true.
Proof. apply all_chars_impl. intros c H. apply clean_char_spec in H. destruct H as [H _]. rewrite H. reflexivity. Qed.

Lemma strip_clean t : clean_token t = true -> strip t = t.
Proof.
  intros H. destruct (clean_token_chars t H) as [Hn Hc]. destruct t as [|c r]; [congruence|].
  cbn [all_chars] in Hc. pose proof Hc as Hc'. apply andb_true_iff in Hc'. destruct Hc' as [Hc1 _].
  apply clean_char_spec in Hc1. destruct Hc1 as [Hw _].
  unfold strip, strip_by. rewrite lstrip_by_head by exact Hw. apply rstrip_by_none.
  apply (clean_no_ws (String c r)). exact Hc.
Qed.

Lemma strip_space_clean t : clean_token t = true -> strip (" " ++ t) = t.
Proof.
  intros H. unfold strip, strip_by. change (" " ++ t) with (String " " t). cbn [lstrip_by].
  change (is_ws " ") with true. cbv iota. apply (strip_clean t H).
Qed.

Fixpoint join_with (sep : string) (l : list string) : string :=
  match l with
  | [] => ""
  | [t] => t
  | t :: r => t ++ sep ++ join_with sep r
  end.

Lemma join_suffix_cons suffix t r : join_suffix suffix (t :: r) = t ++ suffix ++ join_suffix suffix r.
Proof.
  unfold join_suffix. cbn [map]. destruct r as [|t' r'].
  - cbn [map concat]. change (suffix ++ "") with (suffix ++ EmptyString). rewrite app_nil_r_s. reflexivity.
  - change (concat "" ((t ++ suffix) :: map (fun x => x ++ suffix) (t' :: r')))
      with ((t ++ suffix) ++ "" ++ concat "" (map (fun x => x ++ suffix) (t' :: r'))).
    cbn [append]. rewrite app_assoc_s. reflexivity.
Qed.

Lemma prefix_cons a s c r : prefix (String a s) (String c r) = Ascii.eqb a c && prefix s r.
Proof.
  cbn [prefix]. destruct (ascii_dec a c) as [->|N]; [rewrite Ascii.eqb_refl; reflexivity|].
  apply Ascii.eqb_neq in N. rewrite N. reflexivity.
Qed.

Lemma prefix_head a s c r : prefix (String a s) (String c r) = true -> a = c.
Proof. rewrite prefix_cons. intros H. apply andb_true_iff, proj1, Ascii.eqb_eq in H. exact H. Qed.

Lemma before_sep_clean t s : all_chars clean_char t = true -> before_sep ", (" (t ++ s) = t ++ before_sep ", (" s.
Proof.
  induction t as [|c t IH]; cbn [append all_chars]; [reflexivity|]. intros H. apply andb_true_iff in H. destruct H as [H1 H2].
  apply clean_char_spec in H1. destruct H1 as (_ & Hc & _).
  cbn [before_sep]. rewrite prefix_cons, (proj2 (Ascii.eqb_neq "," c)), IH by congruence. reflexivity.
Qed.

Lemma before_sep_space c s : c <> "("%char ->
  before_sep ", (" (", " ++ String c s) = ", " ++ before_sep ", (" (String c s).
Proof.
  intros H. cbn [append]. cbn [before_sep]. rewrite !prefix_cons, (proj2 (Ascii.eqb_neq "(" c)) by congruence. reflexivity.
Qed.

Lemma before_sep_hit rest : before_sep ", (" (", " ++ "(" ++ rest) = "".
Proof. destruct rest; reflexivity. Qed.

Lemma join_with_cons sep t t' r : join_with sep (t :: t' :: r) = t ++ sep ++ join_with sep (t' :: r).
Proof. reflexivity. Qed.

(* the separator ", (" is first met after the last token: a token has no comma, and the ", " after a token that is not
   the last is followed by the first character of the next one, which is not "(" *)
Lemma before_sep_rows : forall toks rest, toks <> [] -> forallb clean_token toks = true ->
  before_sep ", (" (join_suffix ", " toks ++ "(" ++ rest) = join_with ", " toks.
Proof.
  induction toks as [|t r IH]; intros rest Hne Hc; [congruence|].
  cbn [forallb] in Hc. apply andb_true_iff in Hc. destruct Hc as [Ht Hr].
  rewrite join_suffix_cons, !app_assoc_s, before_sep_clean by (apply clean_token_chars, Ht).
  destruct r as [|t' r'].
  - change (join_suffix ", " [] ++ "(" ++ rest) with ("(" ++ rest). rewrite before_sep_hit. apply app_nil_r_s.
  - rewrite join_with_cons, <- (IH rest) by (discriminate || exact Hr). f_equal.
    cbn [forallb] in Hr. apply andb_true_iff, proj1 in Hr.
    destruct t' as [|c' t'']; [discriminate|]. rewrite join_suffix_cons. apply before_sep_space.
    cbn [clean_token all_chars] in Hr. apply andb_true_iff, proj1, clean_char_spec in Hr. apply Hr.
Qed.

Lemma remove_char_none c s : all_chars (fun a => negb (Ascii.eqb a c)) s = true -> remove_char c s = s.
Proof.
  induction s as [|x s IH]; cbn; [reflexivity|]. intros E. apply andb_true_iff in E. destruct E as [E1 E2].
  apply negb_true_iff in E1. rewrite E1, (IH E2). reflexivity.
Qed.

Definition no_par (s : string) : bool := all_chars (fun a => negb (Ascii.eqb a "(") && negb (Ascii.eqb a ")")) s.

Lemma clean_no_par t : all_chars clean_char t = true -> no_par t = true.
Proof.
  apply all_chars_impl. intros c H. unfold clean_char in H. repeat (apply andb_true_iff in H; destruct H as [H ?]).
  apply andb_true_iff. split; assumption.
Qed.

Lemma join_with_no_par : forall toks, forallb clean_token toks = true -> no_par (join_with ", " toks) = true.
Proof.
  induction toks as [|t r IH]; intros H; [reflexivity|].
  cbn [forallb] in H. apply andb_true_iff in H. destruct H as [Ht Hr].
  destruct (clean_token_chars t Ht) as [_ Hct]. destruct r as [|t' r'].
  - cbn [join_with]. apply clean_no_par. exact Hct.
  - rewrite join_with_cons. unfold no_par. rewrite !all_chars_app. fold (no_par t). fold (no_par (join_with ", " (t' :: r'))).
    rewrite (clean_no_par t Hct), (IH Hr). reflexivity.
Qed.

Lemma remove_pars s : no_par s = true -> remove_char ")" (remove_char "(" s) = s.
Proof.
  intros H. rewrite (remove_char_none "(" s), (remove_char_none ")" s); [reflexivity | |];
    revert H; apply all_chars_impl; intros c E; apply andb_true_iff in E; tauto.
Qed.

Lemma split_char_nonempty c s : split_char c s <> [].
Proof.
  induction s as [|a s IH]; cbn [split_char]; [discriminate|].
  destruct (Ascii.eqb a c); [discriminate|]. destruct (split_char c s); [congruence | discriminate].
Qed.

Lemma split_char_app_sep c a b : split_char c (a ++ String c b) = (split_char c a ++ split_char c b)%list.
Proof.
  induction a as [|x a IH]; cbn [append split_char].
  - rewrite Ascii.eqb_refl. reflexivity.
  - destruct (Ascii.eqb x c); [rewrite IH; reflexivity|].
    rewrite IH. destruct (split_char c a) as [|y ys] eqn:E; [apply split_char_nonempty in E; contradiction | reflexivity].
Qed.

Lemma split_char_none c s : all_chars (fun a => negb (Ascii.eqb a c)) s = true -> split_char c s = [s].
Proof.
  induction s as [|a s IH]; cbn [all_chars split_char]; [reflexivity|]. intros E.
  apply andb_true_iff in E. destruct E as [E1 E2]. apply negb_true_iff in E1. rewrite E1, (IH E2). reflexivity.
Qed.

Lemma clean_no_comma t : all_chars clean_char t = true -> all_chars (fun a => negb (Ascii.eqb a ",")) t = true.
Proof.
  apply all_chars_impl. intros c H. unfold clean_char in H. repeat (apply andb_true_iff in H; destruct H as [H ?]). assumption.
Qed.

(* the blank after a comma goes with the strip of the following field *)
Lemma map_strip_space s : map strip (split_char "," (String " " s)) = map strip (split_char "," s).
Proof.
  cbn [split_char]. change (Ascii.eqb " " ",") with false. cbv iota.
  destruct (split_char "," s) as [|x xs] eqn:E; [apply split_char_nonempty in E; contradiction | reflexivity].
Qed.

Lemma split_join : forall toks, toks <> [] -> forallb clean_token toks = true ->
  map strip (split_char "," (join_with ", " toks)) = toks.
Proof.
  induction toks as [|t r IH]; intros Hne H; [congruence|].
  cbn [forallb] in H. apply andb_true_iff in H. destruct H as [Ht Hr].
  assert (Es : split_char "," t = [t]) by (apply split_char_none, clean_no_comma, clean_token_chars, Ht).
  destruct r as [|t' r'].
  - cbn [join_with]. rewrite Es. cbn [map]. rewrite (strip_clean t Ht). reflexivity.
  - rewrite join_with_cons. change (", " ++ ?s) with (String "," (String " " s)).
    rewrite split_char_app_sep, Es, map_app, map_strip_space, IH by (discriminate || exact Hr).
    cbn [map app]. rewrite (strip_clean t Ht). reflexivity.
Qed.

Lemma strip_by_ends f c s d : f c = false -> f d = false ->
  strip_by f (String c (s ++ String d "")) = String c (s ++ String d "").
Proof. intros Hc Hd. unfold strip_by. rewrite lstrip_by_head by exact Hc. apply (rstrip_by_app_last f (String c s) d Hd). Qed.

Lemma assemble_row_clean toks etext : toks <> [] -> forallb clean_token toks = true ->
  assemble_row toks etext = (join_suffix ", " toks ++ "(" ++ etext ++ ")") ++ String NLc ""
  /\ strip (assemble_row toks etext) = join_suffix ", " toks ++ "(" ++ etext ++ ")".
Proof.
  intros Hne H. destruct toks as [|[|c t'] r]; [congruence | discriminate |].
  cbn [forallb clean_token all_chars] in H. apply andb_true_iff, proj1, andb_true_iff, proj1, clean_char_spec in H.
  destruct H as (Hw & Hcomma & _ & _).
  assert (Hsp : Ascii.eqb " " c = false) by (apply Ascii.eqb_neq; intros <-; discriminate Hw).
  assert (Hcm : Ascii.eqb "," c = false) by (apply Ascii.eqb_neq; congruence).
  (* the row body begins with the first character of the first token and ends with ")" *)
  set (body := join_suffix ", " (String c t' :: r) ++ "(" ++ etext ++ ")").
  assert (E : exists s, body = String c (s ++ ")")).
  { exists (t' ++ ", " ++ join_suffix ", " r ++ "(" ++ etext). unfold body.
    rewrite join_suffix_cons, !app_assoc_s. reflexivity. }
  destruct E as [s E]. unfold assemble_row, strip_char. fold body. change (String (ascii_of_nat 10) "") with (String NLc ""). rewrite E.
  rewrite 2!strip_by_ends by reflexivity || assumption. split; [reflexivity|].
  unfold strip, strip_by. cbn [append]. rewrite lstrip_by_head by exact Hw.
  change (String c ((s ++ ")") ++ String NLc "")) with ((String c s ++ ")") ++ String NLc "").
  rewrite rstrip_by_app_ws by reflexivity. apply rstrip_by_app_last. reflexivity.
Qed.

Lemma length_app_s a b : String.length (a ++ b) = String.length a + String.length b.
Proof. induction a as [|x a IH]; cbn; [reflexivity | rewrite IH; reflexivity]. Qed.

Lemma lstrip_by_length f s : String.length (lstrip_by f s) <= String.length s.
Proof. induction s as [|x s IH]; cbn; [lia|]. destruct (f x); cbn; lia. Qed.

Lemma rstrip_by_length f s : String.length (rstrip_by f s) <= String.length s.
Proof.
  induction s as [|x s IH]; cbn [rstrip_by]; [cbn; lia|].
  destruct (rstrip_by f s) eqn:E; [destruct (f x); cbn; lia | cbn in *; lia].
Qed.

Lemma strip_by_length f s : String.length (strip_by f s) <= String.length s.
Proof. unfold strip_by. eapply Nat.le_trans; [apply rstrip_by_length | apply lstrip_by_length]. Qed.

Lemma split_entries : forall entries, forallb (fun e => no_nl (entry_line e)) entries = true ->
  file_lines (entries_lines entries) = (map entry_line entries ++ [""])%list.
Proof.
  unfold file_lines, entries_lines. induction entries as [|e r IH]; intros H; [reflexivity|].
  cbn [forallb] in H. apply andb_true_iff in H. destruct H as [He Hr].
  cbn [map]. rewrite join_suffix_cons. change (String NLc "" ++ ?x) with (String NLc x).
  rewrite split_char_app_sep, (split_char_none NLc _ He), (IH Hr). reflexivity.
Qed.

(* current code: the lines of the base file are untouched (a blank line separates them from the sampled inputs when the
   base ends with a new line) and every sampled input is a line of its own, whatever the base file *)
Lemma input_file_base_lines base entries :
  forallb (fun e => no_nl (entry_line e)) entries = true ->
  file_lines (input_file base entries) = (file_lines base ++ map entry_line entries ++ [""])%list.
Proof.
  intros H. unfold input_file, file_lines. rewrite split_char_app_sep. f_equal. apply (split_entries entries H).
Qed.

Lemma input_file_lines base entries e :
  forallb (fun e => no_nl (entry_line e)) entries = true -> In e entries ->
  In (entry_line e) (file_lines (input_file base entries)).
Proof.
  intros H Hin. rewrite (input_file_base_lines base entries H), !in_app_iff. right. left. apply in_map, Hin.
Qed.

Lemma filter_all {A} (f : A -> bool) l : forallb f l = true -> filter f l = l.
Proof.
  induction l as [|x r IH]; cbn [forallb filter]; [reflexivity|]. intros H. apply andb_true_iff in H.
  destruct H as [-> H]. rewrite (IH H). reflexivity.
Qed.

Lemma filter_length_all {A} (f : A -> bool) l :
  List.length (filter f l) <= List.length l /\ (List.length (filter f l) = List.length l <-> forallb f l = true).
Proof.
  induction l as [|x r [IH1 IH2]]; cbn [forallb filter List.length]; [split; [lia | tauto]|].
  destruct (f x); cbn [List.length andb]; [rewrite <- IH2; lia|]. split; [lia|]. split; [lia | discriminate].
Qed.

Lemma row_tokens_filter outputs lines :
  row_tokens outputs lines = map (value_of lines) (filter (found lines) outputs).
Proof.
  unfold row_tokens. induction outputs as [|o r IH]; cbn [flat_map filter]; [reflexivity|].
  rewrite IH. change (found lines o) with (match find_output o lines with Some _ => true | None => false end).
  destruct (find_output o lines) eqn:E; [cbn [map]; unfold value_of at 2; rewrite E|]; reflexivity.
Qed.
