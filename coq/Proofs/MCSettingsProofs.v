(* Proofs/MCSettingsProofs.v - about Model/MCSettings.v and the dispatch of Model/MonteCarlo.v, for C13: the words of the
   statements that the models do not define (just below); the reader loop collects INPUT and OUTPUT lines in file order
   and fails on a line without a comma; a distribution word fires at most one distribution; the '#' look-up takes the
   first line that starts with the name, the simulator the last line that defines it. *)
From Coq Require Import List Arith Bool QArith String Ascii Lia.
From Verif Require Import Model.MonteCarlo Model.MCRows Model.MCSettings Proofs.MCRowsProofs.
Import ListNotations.
Open Scope nat_scope.
Open Scope string_scope.

(* what an OUTPUT line contributes (the counterparts of is_input_line and input_fields of the model) *)
Definition is_output_line (line : string) : bool :=
  match split_char "," (strip line) with p0 :: _ :: _ => negb (prefix "INPUT" p0) && prefix "OUTPUT" p0 | _ => false end.
Definition output_field (line : string) : string :=
  match split_char "," (strip line) with _ :: p1 :: _ => strip p1 | _ => "" end.

(* an INPUT line whose distribution word names one of the five, and the numpy call it then leads to *)
Definition recognised (wf : string * list Q) : bool := Nat.eqb (List.length (dispatch (fst wf))) 1.
Definition the_call (wf : string * list Q) : dist * list Q :=
  let k := hd DNormal (dispatch (fst wf)) in (k, call_args k (snd wf)).

Definition NL1 : string := String (ascii_of_nat 10) "".

Lemma read_line_lists acc l acc' : read_line acc l = Some acc' ->
  s_inputs acc' = (s_inputs acc ++ (if is_input_line l then [input_fields l] else []))%list /\
  s_outputs acc' = (s_outputs acc ++ (if is_output_line l then [output_field l] else []))%list.
Proof.
  unfold read_line, is_input_line, is_output_line, input_fields, output_field.
  destruct (split_char "," (strip l)) as [|p0 [|p1 rest]]; try discriminate.
  intros [= <-].
  generalize (prefix "INPUT" p0), (prefix "OUTPUT" p0), (prefix "ITERATIONS" p0), (prefix "MC_OUTPUT_FILE" p0),
    (prefix "PYTHON_PATH" p0), (prefix "HTML_PATH" p0).
  intros i o b3 b4 b5 b6.
  (* the branches of the if / elif chain one after the other; only the first two touch the two lists *)
  destruct i; [|destruct o; [|destruct b3; [|destruct b4; [|destruct b5; [|destruct b6]]]]];
    cbn [negb andb s_inputs s_outputs]; rewrite ?app_nil_r; split; reflexivity.
Qed.

Lemma read_lines_lists : forall lines acc s, read_lines acc lines = Some s ->
  s_inputs s = (s_inputs acc ++ map input_fields (filter is_input_line lines))%list /\
  s_outputs s = (s_outputs acc ++ map output_field (filter is_output_line lines))%list.
Proof.
  induction lines as [|l r IH]; intros acc s H; cbn [read_lines] in H.
  - inversion H; subst. cbn. rewrite !app_nil_r. split; reflexivity.
  - destruct (read_line acc l) as [acc'|] eqn:E; [|discriminate].
    destruct (read_line_lists _ _ _ E) as [E1 E2]. destruct (IH _ _ H) as [H1 H2].
    rewrite H1, H2, E1, E2. cbn [filter]. rewrite <- !app_assoc.
    destruct (is_input_line l), (is_output_line l); cbn [map app]; split; reflexivity.
Qed.

(* a line the reader fails on (one without a comma: a blank line, for one) makes it fail wherever the line stands *)
Lemma read_lines_error pre l post : (forall acc, read_line acc l = None) ->
  forall acc, read_lines acc (pre ++ l :: post) = None.
Proof.
  intros E. induction pre as [|x r IH]; intros acc; cbn [app read_lines].
  - rewrite E. reflexivity.
  - destruct (read_line acc x); [apply IH | reflexivity].
Qed.

(* the five words begin with five different letters, so the three if-groups of the chain exclude each other *)
Lemma dispatch_at_most_one w : List.length (dispatch w) <= 1.
Proof.
  unfold dispatch. destruct (MonteCarlo.lstrip w) as [|c r]; [cbn; lia|].
  destruct (prefix "lognormal" (String c r)) eqn:L.
  - apply prefix_head in L. subst c. cbn. lia.
  - destruct (prefix "binomial" (String c r)) eqn:B.
    + apply prefix_head in B. subst c. cbn. lia.
    + destruct (prefix "normal" (String c r)), (prefix "uniform" (String c r)), (prefix "triangular" (String c r)); cbn; lia.
Qed.

Lemma expected_calls_in_order inputs : forallb recognised inputs = true ->
  expected_calls inputs = map the_call inputs.
Proof.
  unfold expected_calls. induction inputs as [|wf r IH]; cbn [forallb flat_map map]; [reflexivity|].
  intros H. apply andb_true_iff in H. destruct H as [Hw Hr]. rewrite (IH Hr). unfold recognised in Hw.
  unfold the_call at 2. destruct (dispatch (fst wf)) as [|k [|k' t]] eqn:E; cbn in Hw; try discriminate. reflexivity.
Qed.

Lemma find_first {A} (f : A -> bool) pre l post :
  forallb (fun x => negb (f x)) pre = true -> f l = true -> find f (pre ++ l :: post) = Some l.
Proof.
  induction pre as [|x r IH]; cbn [forallb app find]; intros H Hl.
  - rewrite Hl. reflexivity.
  - apply andb_true_iff in H. destruct H as [H1 H2]. apply negb_true_iff in H1. rewrite H1. apply IH; assumption.
Qed.

Lemma replace_mean_no_hash fields base : first_hash fields 0 = None -> replace_mean fields base = Some fields.
Proof. intros H. unfold replace_mean. rewrite H. reflexivity. Qed.

Lemma simulated_line_last name : forall pre l post,
  forallb (fun y => negb (names_param name y)) post = true -> names_param name l = true ->
  simulated_line name (pre ++ l :: post) = Some l.
Proof.
  intros pre l post Hpost Hl.
  assert (Hp : simulated_line name post = None).
  { induction post as [|y r IH]; [reflexivity|]. cbn [forallb] in Hpost. apply andb_true_iff in Hpost. destruct Hpost as [H1 H2].
    apply negb_true_iff in H1. cbn [simulated_line]. rewrite (IH H2), H1. reflexivity. }
  induction pre as [|y r IH]; cbn [app simulated_line].
  - rewrite Hp, Hl. reflexivity.
  - rewrite IH. reflexivity.
Qed.

(* the line the mean is read from is not always the line the simulator takes the value from: a parameter given twice (the
   simulator uses the last value, C12), and a longer parameter name that starts with the same text earlier in the file (the
   layout of the shipped examples) *)
Lemma mean_not_simulated_value_duplicate :
  let base := ["Reservoir Temperature, 150" ++ NL1; "Reservoir Temperature, 160" ++ NL1] in
  replace_mean ["Reservoir Temperature"; " normal"; " #"; " 5"] base
    = Some ["Reservoir Temperature"; " normal"; " 150" ++ NL1; " 5"]
  /\ simulated_value "Reservoir Temperature" base = Some "160".
Proof. split; vm_compute; reflexivity. Qed.

Lemma mean_not_simulated_value_prefix :
  let base := ["Reservoir Volume Option,4,  --- Should be 1 2 3 or 4" ++ NL1; "Reservoir Volume,1e9,  --- [m3]" ++ NL1] in
  replace_mean ["Reservoir Volume"; " normal"; " #"; " 5e7"] base = Some ["Reservoir Volume"; " normal"; "4"; " 5e7"]
  /\ simulated_value "Reservoir Volume" base = Some "1e9".
Proof. split; vm_compute; reflexivity. Qed.
