(* Proofs/MCStatsProofs.v - about Model/MCStats.v, for C14: minimum, maximum, mean, variance and median of a non-empty
   sample do not depend on its order; minimum <= mean, median <= maximum and 0 <= variance; the reduced evaluation that
   the harness runs gives the same mean and variance. *)
From Coq Require Import QArith Qabs Qminmax Qround List Permutation Sorted Lia Lqa Arith.
From Verif Require Import Base.Flat Proofs.FlatFacts Model.MCStats.
Import ListNotations.
Open Scope Q_scope.

Lemma min_of_le : forall l x e, In e (x :: l) -> min_of x l <= e.
Proof.
  induction l as [|y r IH]; intros x e H; cbn [min_of].
  - destruct H as [<-|[]]. lra.
  - destruct H as [<-|H].
    + apply Q.le_min_l.
    + eapply Qle_trans; [apply Q.le_min_r | apply IH; exact H].
Qed.

Lemma max_of_ge : forall l x e, In e (x :: l) -> e <= max_of x l.
Proof.
  induction l as [|y r IH]; intros x e H; cbn [max_of].
  - destruct H as [<-|[]]. lra.
  - destruct H as [<-|H].
    + apply Q.le_max_l.
    + eapply Qle_trans; [apply IH; exact H | apply Q.le_max_r].
Qed.

(* min_of and max_of combine the sample with an operation that is commutative and associative up to ==: the result does
   not depend on the order *)
Section Reduce.
  Variable op : Q -> Q -> Q.
  Hypothesis op_compat : forall a a' b b', a == a' -> b == b' -> op a b == op a' b'.
  Hypothesis op_comm : forall a b, op a b == op b a.
  Hypothesis op_assoc : forall a b c, op a (op b c) == op (op a b) c.

  Fixpoint reduce (x : Q) (l : list Q) : Q := match l with [] => x | y :: r => op x (reduce y r) end.

  Lemma reduce_perm L L' : Permutation L L' ->
    forall x l y l', L = x :: l -> L' = y :: l' -> reduce x l == reduce y l'.
  Proof.
    induction 1 as [|a l1 l2 P IH|a b l1|l1 l2 l3 P1 IH1 P2 IH2]; intros x l y l' E E'.
    - discriminate.
    - injection E as <- <-. injection E' as <- <-. destruct l1 as [|u r], l2 as [|v s].
      + reflexivity.
      + apply Permutation_nil in P. discriminate.
      + apply Permutation_sym, Permutation_nil in P. discriminate.
      + cbn [reduce]. apply op_compat; [reflexivity | apply (IH u r v s); reflexivity].
    - injection E as <- <-. injection E' as <- <-. cbn [reduce]. destruct l1 as [|u r]; [apply op_comm|].
      eapply Qeq_trans; [apply op_assoc|]. eapply Qeq_trans; [|symmetry; apply op_assoc].
      apply op_compat; [apply op_comm | reflexivity].
    - destruct l2 as [|z m]; [apply Permutation_sym, Permutation_nil in P1; subst; discriminate|].
      transitivity (reduce z m); [apply (IH1 x l z m) | apply (IH2 z m y l')]; auto.
  Qed.
End Reduce.

Lemma min_of_reduce x l : min_of x l = reduce Qmin x l.
Proof. revert x. induction l as [|y r IH]; intros x; cbn [min_of reduce]; [|rewrite IH]; reflexivity. Qed.

Lemma max_of_reduce x l : max_of x l = reduce Qmax x l.
Proof. revert x. induction l as [|y r IH]; intros x; cbn [max_of reduce]; [|rewrite IH]; reflexivity. Qed.

Lemma min_perm x l y l' : Permutation (x :: l) (y :: l') -> min_of x l == min_of y l'.
Proof.
  intros P. rewrite !min_of_reduce.
  apply (reduce_perm Qmin (fun a a' b b' Ea Eb => Q.min_compat a a' Ea b b' Eb) Q.min_comm Q.min_assoc _ _ P); reflexivity.
Qed.

Lemma max_perm x l y l' : Permutation (x :: l) (y :: l') -> max_of x l == max_of y l'.
Proof.
  intros P. rewrite !max_of_reduce.
  apply (reduce_perm Qmax (fun a a' b b' Ea Eb => Q.max_compat a a' Ea b b' Eb) Q.max_comm Q.max_assoc _ _ P); reflexivity.
Qed.

Lemma min_le_max x l : min_of x l <= max_of x l.
Proof. eapply Qle_trans; [apply min_of_le | apply max_of_ge]; left; reflexivity. Qed.

Lemma sumQ_perm l l' : Permutation l l' -> sumQ l == sumQ l'.
Proof.
  induction 1; cbn [sumQ]; lra.
Qed.

Lemma lenQ_perm l l' : Permutation l l' -> lenQ l = lenQ l'.
Proof. intros P. unfold lenQ. rewrite (Permutation_length P). reflexivity. Qed.

(* lenQ l is natQ (length l) *)
Lemma lenQ_cons x l : lenQ (x :: l) == 1 + lenQ l.
Proof. rewrite Qplus_comm. apply (natQ_S (length l)). Qed.

Lemma lenQ_pos x l : 0 < lenQ (x :: l).
Proof. apply (natQ_pos (S (length l))). apply Nat.lt_0_succ. Qed.

Lemma mean_perm l l' : Permutation l l' -> mean l == mean l'.
Proof. intros P. unfold mean. rewrite (lenQ_perm _ _ P), (sumQ_perm _ _ P). reflexivity. Qed.

Lemma sumQ_map_ext (f g : Q -> Q) l : (forall v, f v == g v) -> sumQ (map f l) == sumQ (map g l).
Proof. intros E. induction l as [|v r IH]; cbn [map sumQ]; [reflexivity|]. rewrite IH, E. reflexivity. Qed.

Lemma sqdev_ext m m' v : m == m' -> sqdev m v == sqdev m' v.
Proof. intros E. unfold sqdev. rewrite E. reflexivity. Qed.

Lemma variance_perm l l' : Permutation l l' -> variance l == variance l'.
Proof.
  intros P. unfold variance. rewrite (lenQ_perm _ _ P).
  rewrite (sumQ_map_ext _ (sqdev (mean l')) l) by (intros v; apply sqdev_ext, mean_perm, P).
  rewrite (sumQ_perm _ _ (Permutation_map (sqdev (mean l')) P)). reflexivity.
Qed.

Lemma sum_lower a l : (forall e, In e l -> a <= e) -> a * lenQ l <= sumQ l.
Proof.
  induction l as [|v r IH]; intros H.
  - unfold lenQ. cbn [length Z.of_nat sumQ]. change (inject_Z 0) with 0. rewrite Qmult_0_r. lra.
  - rewrite lenQ_cons. cbn [sumQ].
    assert (a <= v) by (apply H; left; reflexivity).
    assert (a * lenQ r <= sumQ r) by (apply IH; intros e He; apply H; right; exact He). lra.
Qed.

Lemma sum_upper a l : (forall e, In e l -> e <= a) -> sumQ l <= a * lenQ l.
Proof.
  induction l as [|v r IH]; intros H.
  - unfold lenQ. cbn [length Z.of_nat sumQ]. change (inject_Z 0) with 0. rewrite Qmult_0_r. lra.
  - rewrite lenQ_cons. cbn [sumQ].
    assert (v <= a) by (apply H; left; reflexivity).
    assert (sumQ r <= a * lenQ r) by (apply IH; intros e He; apply H; right; exact He). lra.
Qed.

Lemma mean_bounds x l : min_of x l <= mean (x :: l) /\ mean (x :: l) <= max_of x l.
Proof.
  unfold mean. split.
  - apply Qle_shift_div_l; [apply lenQ_pos|]. apply sum_lower. intros e He. apply min_of_le. exact He.
  - apply Qle_shift_div_r; [apply lenQ_pos|]. apply sum_upper. intros e He. apply max_of_ge. exact He.
Qed.

Lemma variance_nonneg x l : 0 <= variance (x :: l).
Proof.
  unfold variance. apply Qle_shift_div_l; [apply lenQ_pos|]. rewrite Qmult_0_l.
  generalize (mean (x :: l)). intros m. induction (x :: l) as [|v r IH]; cbn [map sumQ]; [lra|].
  assert (0 <= sqdev m v).
  { unfold sqdev. remember (v - m) as t. destruct (Qlt_le_dec t 0); nra. }
  lra.
Qed.

(* the reduced evaluation used by the harness computes the same numbers *)
Lemma mean_x_eq l : mean_x l == mean l.
Proof. unfold mean_x, mean. rewrite Qred_correct, sumQ_red_eq. reflexivity. Qed.

Lemma variance_x_eq l : variance_x l == variance l.
Proof.
  unfold variance_x, variance. rewrite Qred_correct, sumQ_red_eq.
  rewrite (sumQ_map_ext _ (sqdev (mean l)) l); [reflexivity|].
  intros v. rewrite Qred_correct. apply sqdev_ext, mean_x_eq.
Qed.

Lemma insert_perm x l : Permutation (x :: l) (insert x l).
Proof.
  induction l as [|y r IH]; cbn [insert]; [reflexivity|].
  destruct (Qle_bool x y); [reflexivity|].
  eapply perm_trans; [apply perm_swap | apply perm_skip; exact IH].
Qed.

Lemma isort_perm l : Permutation l (isort l).
Proof.
  induction l as [|x r IH]; cbn [isort]; [constructor|].
  eapply perm_trans; [apply perm_skip; exact IH | apply insert_perm].
Qed.

Lemma insert_sorted x l : StronglySorted Qle l -> StronglySorted Qle (insert x l).
Proof.
  induction 1 as [|y r S IH F]; cbn [insert].
  - constructor; constructor.
  - destruct (Qle_bool x y) eqn:E.
    + apply Qle_bool_iff in E. constructor; [constructor; assumption|].
      constructor; [exact E|]. eapply Forall_impl; [|exact F]. intros a Ha. cbv beta in Ha. lra.
    + assert (Hyx : y <= x).
      { destruct (Qlt_le_dec y x) as [H|H]; [lra|]. apply Qle_bool_iff in H. congruence. }
      constructor; [exact IH|].
      apply (Permutation_Forall (insert_perm x r)). constructor; assumption.
Qed.

Lemma isort_sorted l : StronglySorted Qle (isort l).
Proof. induction l as [|x r IH]; cbn [isort]; [constructor | apply insert_sorted; exact IH]. Qed.

Definition reduced (q : Q) : Prop := Qred q = q.

Lemma reduced_Qred q : reduced (Qred q).
Proof. unfold reduced. apply Qred_complete. apply Qred_correct. Qed.

Lemma reduced_eq a b : reduced a -> reduced b -> a == b -> a = b.
Proof. unfold reduced. intros Ha Hb E. rewrite <- Ha, <- Hb. apply Qred_complete. exact E. Qed.

Lemma sorted_perm_unique : forall l l',
  StronglySorted Qle l -> StronglySorted Qle l' -> Forall reduced l -> Permutation l l' -> l = l'.
Proof.
  induction l as [|a l IH]; intros l' S S' R P.
  - apply Permutation_nil in P. symmetry. exact P.
  - destruct l' as [|b l']; [apply Permutation_sym, Permutation_nil in P; discriminate|].
    inversion S as [|? ? Sl Fa]; subst. inversion S' as [|? ? Sl' Fb]; subst. inversion R as [|? ? Ra Rl]; subst.
    assert (R' : Forall reduced (b :: l')) by (apply (Permutation_Forall P); exact R).
    inversion R' as [|? ? Rb Rl']; subst.
    assert (Hab : a <= b).
    { assert (In b (a :: l)) by (apply Permutation_in with (l := b :: l'); [symmetry; exact P | left; reflexivity]).
      destruct H as [->|H]; [lra|]. rewrite Forall_forall in Fa. apply Fa. exact H. }
    assert (Hba : b <= a).
    { assert (In a (b :: l')) by (apply Permutation_in with (l := a :: l); [exact P | left; reflexivity]).
      destruct H as [->|H]; [lra|]. rewrite Forall_forall in Fb. apply Fb. exact H. }
    assert (E : a = b) by (apply reduced_eq; [assumption | assumption | lra]).
    subst b. f_equal. apply IH; try assumption. apply Permutation_cons_inv with (a := a). exact P.
Qed.

Lemma sorted_red_perm l l' : Permutation l l' -> sorted_red l = sorted_red l'.
Proof.
  intros P. unfold sorted_red. apply sorted_perm_unique; try apply isort_sorted.
  - apply (Permutation_Forall (isort_perm (map Qred l))). rewrite Forall_forall. intros x Hx.
    apply in_map_iff in Hx. destruct Hx as (y & <- & _). apply reduced_Qred.
  - eapply perm_trans; [symmetry; apply isort_perm|].
    eapply perm_trans; [apply Permutation_map; exact P | apply isort_perm].
Qed.

Lemma median_perm l l' : Permutation l l' -> median l = median l'.
Proof. intros P. unfold median. rewrite (sorted_red_perm _ _ P), (Permutation_length P). reflexivity. Qed.

Lemma sorted_red_length l : length (sorted_red l) = length l.
Proof. unfold sorted_red. rewrite <- (Permutation_length (isort_perm _)). apply map_length. Qed.

Lemma sorted_red_in l e : In e (sorted_red l) -> exists v, In v l /\ e == v.
Proof.
  intros H. unfold sorted_red in H. apply (Permutation_in _ (Permutation_sym (isort_perm _))) in H.
  apply in_map_iff in H. destruct H as (v & <- & Hv). exists v. split; [exact Hv | apply Qred_correct].
Qed.

Lemma median_bounds x l : min_of x l <= median (x :: l) /\ median (x :: l) <= max_of x l.
Proof.
  set (L := x :: l). set (n := length L).
  assert (Hn : (0 < n)%nat) by (unfold n, L; cbn; lia).
  assert (B : forall k, (k < n)%nat -> min_of x l <= nth k (sorted_red L) 0 /\ nth k (sorted_red L) 0 <= max_of x l).
  { intros k Hk. assert (Hin : In (nth k (sorted_red L) 0) (sorted_red L)) by (apply nth_In; rewrite sorted_red_length; exact Hk).
    apply sorted_red_in in Hin. destruct Hin as (v & Hv & E). rewrite E. split; [apply min_of_le | apply max_of_ge]; exact Hv. }
  unfold median. fold L. fold n.
  assert (H2 : (n / 2 < n)%nat) by (apply Nat.div_lt; lia).
  destruct (Nat.even n).
  - assert (H1 : (n / 2 - 1 < n)%nat) by lia.
    destruct (B _ H1) as [A1 A2]. destruct (B _ H2) as [A3 A4].
    split; [apply Qle_shift_div_l | apply Qle_shift_div_r]; lra.
  - apply B. exact H2.
Qed.
