(* Proofs/MemoProofs.v - lemmas about Model/Memo.v (C08): memoisation is unobservable, for every call sequence,
   every maxsize and every starting table that is consistent with the function. *)
From Coq Require Import List Bool Arith NArith String Lia.
From Verif Require Import Model.Memo Gen.C08MemoTable Gen.C08StateTable.
Import ListNotations.

Section MemoProofs.
  Variables K V : Type.
  Variable keq : K -> K -> bool.
  Variable f : K -> V.

  Lemma find_entry_some x (t : list (K * V)) k v :
    find_entry keq x t = Some (k, v) -> In (k, v) t /\ keq x k = true.
  Proof.
    induction t as [|[k' v'] r IH]; simpl; [discriminate|].
    destruct (keq x k') eqn:E.
    - intros H. inversion H; subst. auto.
    - intros H. destruct (IH H). auto.
  Qed.

  Lemma find_entry_none x (t : list (K * V)) :
    (forall k v, In (k, v) t -> keq x k = false) -> find_entry keq x t = None.
  Proof.
    induction t as [|[k' v'] r IH]; simpl; intros H; [reflexivity|].
    rewrite (H k' v') by auto. apply IH. intros k v Hi. apply (H k v). auto.
  Qed.

  Lemma remove_entry_incl x (t : list (K * V)) e : In e (remove_entry keq x t) -> In e t.
  Proof.
    induction t as [|[k' v'] r IH]; simpl; auto.
    destruct (keq x k'); simpl; intuition.
  Qed.

  Lemma firstn_incl {A} n (l : list A) e : In e (firstn n l) -> In e l.
  Proof. revert n. induction l as [|h t IH]; intros [|n]; simpl; intuition eauto. Qed.

  Lemma trim_incl m (t : list (K * V)) e : In e (trim m t) -> In e t.
  Proof. destruct m; simpl; auto. apply firstn_incl. Qed.

  Definition consistent (t : list (K * V)) : Prop := forall k v, In (k, v) t -> v = f k.

  (* the function does not distinguish arguments that Python's key equality identifies *)
  Definition respects : Prop := forall a b, keq a b = true -> f a = f b.

  Lemma memo_call_pure m (t : list (K * V)) x : respects -> consistent t ->
    fst (fst (memo_call keq f m t x)) = f x /\ consistent (snd (memo_call keq f m t x)).
  Proof.
    intros Hr Hc. unfold memo_call. destruct (find_entry keq x t) as [[k v]|] eqn:E; simpl.
    - destruct (find_entry_some _ _ _ _ E) as [Hi Hk]. split.
      + rewrite (Hc k v Hi). symmetry. now apply Hr.
      + intros k' v' [H|H]; [inversion H; subst; now apply Hc|]. apply Hc. eapply remove_entry_incl; eauto.
    - split; [reflexivity|]. intros k' v' H. apply trim_incl in H as [H|H]; [now inversion H|now apply Hc].
  Qed.

  Theorem memo_calls_pure m : respects -> forall xs t, consistent t ->
    map fst (fst (memo_calls keq f m t xs)) = map f xs.
  Proof.
    intros Hr. induction xs as [|x r IH]; intros t Hc; simpl; [reflexivity|].
    destruct (memo_call_pure m t x Hr Hc) as [E1 E2].
    destruct (memo_call keq f m t x) as [[v h] t'] eqn:Ec. simpl in E1, E2.
    specialize (IH t' E2). destruct (memo_calls keq f m t' r) as [vs t'']. simpl in *. now rewrite E1, IH.
  Qed.

  (* keys that are pairwise different never hit, whatever the function does (no [respects] needed) *)
  Theorem memo_calls_distinct m : forall xs t,
    (forall x, In x xs -> forall k v, In (k, v) t -> keq x k = false) ->
    ForallOrdPairs (fun a b => keq b a = false) xs ->
    fst (memo_calls keq f m t xs) = map (fun x => (f x, false)) xs.
  Proof.
    induction xs as [|x r IH]; intros t Ht Hp; simpl; [reflexivity|].
    inversion Hp as [|a l Hx Hr]; subst.
    unfold memo_call. rewrite (find_entry_none x t) by (apply Ht; now left).
    specialize (IH (trim m ((x, f x) :: t))).
    destruct (memo_calls keq f m (trim m ((x, f x) :: t)) r) as [vs t''] eqn:E. simpl in *.
    f_equal. apply IH; [|exact Hr].
    intros y Hy k v Hi. apply trim_incl in Hi as [Hi|Hi].
    - inversion Hi; subst. rewrite Forall_forall in Hx. now apply Hx.
    - exact (Ht y (or_intror Hy) k v Hi).
  Qed.
End MemoProofs.

Lemma nodup_fst_pairs {S} (l : list (nat * S)) :
  NoDup (map fst l) -> ForallOrdPairs (fun a b => id_keq b a = false) l.
Proof.
  induction l as [|a l IH]; simpl; intros H; [constructor|].
  inversion H as [|x xs Hn Hd]; subst. constructor; [|auto].
  rewrite Forall_forall. intros b Hb. unfold id_keq. apply Nat.eqb_neq. intros E.
  apply Hn. rewrite <- E. now apply in_map.
Qed.

(* why distinct identities matter: were an identity reused for an object in another state, the old value would
   come back (this cannot happen while the table holds a strong reference to its keys) *)
Lemma identity_reuse_witness :
  id_calls (fun s : nat => s) None [(1, 10); (1, 20)] = [(10, false); (10, true)].
Proof. vm_compute. reflexivity. Qed.

(* the memoised callables found in the source tree are all of a transparent kind *)
Lemma memo_table_ok : forallb entry_ok c08_memo_table = true.
Proof. vm_compute. reflexivity. Qed.

(* no parameter of the current source takes its default from an object shared between runs *)
Lemma param_defaults_fresh : forallb default_ok c08_param_defaults = true.
Proof. vm_compute. reflexivity. Qed.

(* no row of the generated table of objects that outlive a run is written without being flagged a keyed memo (the
   flags are the generator's, tools/gen/c08_state.py) *)
Lemma state_table_ok : forallb state_ok c08_state_table = true.
Proof. vm_compute. reflexivity. Qed.

(* no loop of the current source walks a set: parameter reading and the calculations do not depend on the hash seed
   through an iteration order *)
Lemma iterations_ok : forallb iteration_ok c08_iterations = true.
Proof. vm_compute. reflexivity. Qed.

