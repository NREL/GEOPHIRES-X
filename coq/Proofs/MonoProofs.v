(* Proofs/MonoProofs.v - outputs respond monotonically where the model says they must (C18).  The file opens with the
   definitions in which the statements of Props/C18.v are written. *)
From Coq Require Import QArith List ZArith Bool Lqa.
From Verif Require Import Base.Flat Model.CashFlow Model.Lcoe Model.Costs Model.Gradient Model.Drawdown Model.Ramey
     Proofs.FlatFacts Proofs.LcoeProofs.
Import ListNotations.
Open Scope Q_scope.

(* same layering (thicknesses), every gradient at least as large *)
Inductive grads_le : list (Q * Q) -> list (Q * Q) -> Prop :=
| gle_nil : grads_le [] []
| gle_cons g g' th r r' : g <= g' -> grads_le r r' -> grads_le ((g, th) :: r) ((g', th) :: r').

(* the deepest well: the input Reservoir Depth is at most 15 km (Reservoir.py) *)
Definition max_depth_m : Q := 15000.
(* the check run over the regenerated table: the derivative 2 c2 d + c1 of a row is non-negative at 500 m and at the maximum depth *)
Definition mono_ok (row : Z * bool * (Q * Q * Q)) : bool :=
  let '(_, _, (c2, c1, _)) := row in
  Qle_bool 0 (2 * c2 * 500 + c1) && Qle_bool 0 (2 * c2 * max_depth_m + c1).

(* the same project with other capital and O&M cost *)
Definition with_costs (c : cf_in) (ccap coam : Q) : cf_in :=
  {| ci_kind := ci_kind c; ci_cy := ci_cy c; ci_ccap := ccap; ci_coam := coam; ci_carbon := ci_carbon c;
     ci_gi := ci_gi c; ci_ni := ci_ni c; ci_eE := ci_eE c; ci_eH := ci_eH c; ci_eC := ci_eC c;
     ci_pE := ci_pE c; ci_pH := ci_pH c; ci_pC := ci_pC c; ci_pCarb := ci_pCarb c |}.

(* the coefficient K of the capital cost in the BICYCLE numerator (1 + g) * (cap * K + present value of the annual costs),
   g = gtr / (1 - gtr): bic_num_linear below *)
Definition bic_cap_coeff (c : lc_in) : Q :=
  let i1 := 1 + l_inflc c in let A := geo1 (bic_qd c) (ones (l_life c)) in let G := geo1 (bic_qg c) (ones (l_life c)) in
  i1 * crf c * A + i1 * l_ptr c * G + l_ctr c / (1 - l_ctr c) * (i1 * crf c - / natQ (l_life c)) * A
  - i1 * l_ritc c / (1 - l_ctr c).

(* what C18_lcoe_cost asks of the inputs: a non-negative unit factor and, for the model that l_econ selects, a non-negative
   coefficient of the capital cost (FCR: fcr (1 + i_c); standard: 1 + i_c; BICYCLE: 1 + g and K, which a large tax-credit
   rate makes negative), non-negative discount ratios, and a positive energy denominator *)
Definition lev_mono_conditions (c : lc_in) (avgE : Q) (energy : list Q) (unit : Q) : Prop :=
  0 <= unit /\
  (l_econ c = 1%Z -> 0 <= l_fcr c * (1 + l_inflc c) /\ 0 < avgE) /\
  (l_econ c = 2%Z -> 0 <= 1 + l_inflc c /\ 0 <= / (1 + l_disc c) /\ 0 < std_den_spec c energy) /\
  (l_econ c <> 1%Z -> l_econ c <> 2%Z ->
     0 <= 1 + l_gtr c / (1 - l_gtr c) /\ 0 <= bic_cap_coeff c /\ 0 <= bic_qg c /\ 0 < bic_den_spec c energy).

(* the profile itself (the bottom-hole temperature is its minimum with Tmax, GradientProofs.trock_is_min) *)
Lemma Tprofile_mono_grad : forall upper upper', grads_le upper upper' ->
  Forall (fun p => 0 < fst p /\ 0 < snd p) upper ->
  forall gb gb' Ts Ts' d, gb <= gb' -> Ts <= Ts' -> 0 <= d ->
  Tprofile Ts upper gb d <= Tprofile Ts' upper' gb' d.
Proof.
  intros upper upper' H. induction H as [|g g' th r r' Hg _ IH]; intros HF gb gb' Ts Ts' d Hgb HT Hd; cbn [Tprofile].
  - nra.
  - inversion HF as [|? ? [_ Hth] HF']; subst. cbn in Hth.
    destruct (Qlt_le_dec th d).
    + apply IH; try assumption; nra.
    + nra.
Qed.

Theorem tdp_mono_rate Trock Tinj dd dd' t : Tinj <= Trock -> 0 <= t -> dd <= dd' ->
  tdp_T Trock Tinj dd' t <= tdp_T Trock Tinj dd t.
Proof. intros. unfold tdp_T. assert (0 <= (dd' - dd) * t) by nra. nra. Qed.

Theorem tdp_series_mono_rate Trock Tinj dd dd' ts : Tinj <= Trock -> Forall (fun t => 0 <= t) ts -> dd <= dd' ->
  Forall2 Qle (tdp_series Trock Tinj dd' ts) (tdp_series Trock Tinj dd ts).
Proof.
  intros HT Hts Hdd. unfold tdp_series. induction Hts; simpl; constructor; auto. now apply tdp_mono_rate.
Qed.

Lemma ramey_drop0_E (E : Q -> Q) g depth A ex : ex == 1 - E (depth / A) ->
  ramey_drop0 g depth A ex == drop0_E E g depth A.
Proof. intros H. unfold ramey_drop0, ramey_drop, drop0_E. rewrite H. ring. Qed.

Section RameyFlow.
Variable E : Q -> Q.                      (* x |-> 1 - exp(-x) *)
(* concavity of E with E 0 = 0, in chord form: the chord slope E x / x does not increase *)
Hypothesis chord : forall x y, 0 < x -> x <= y -> x * E y <= y * E x.

Lemma A_E_mono depth A1 A2 : 0 < depth -> 0 < A1 -> A1 <= A2 -> A1 * E (depth / A1) <= A2 * E (depth / A2).
Proof.
  intros Hd H1 H12. assert (H2 : 0 < A2) by lra.
  (* all that is used of x = depth / A2 and y = depth / A1 *)
  assert (Ex : A2 * (depth / A2) == depth) by (apply Qmult_div_r; lra).
  assert (Ey : A1 * (depth / A1) == depth) by (apply Qmult_div_r; lra).
  set (x := depth / A2) in *. set (y := depth / A1) in *.
  assert (Hx : 0 < x) by nra. assert (Hle : x <= y) by nra.
  pose proof (chord x y Hx Hle) as Hc.
  (* the chord inequality times A1 * A2 is the claim times depth *)
  apply (Qmult_le_l _ _ depth Hd).
  assert (L : depth * (A1 * E y) == A1 * A2 * (x * E y)) by (rewrite <- Ex; ring).
  assert (R : depth * (A2 * E x) == A1 * A2 * (y * E x)) by (rewrite <- Ey; ring).
  rewrite L, R. apply Qmult_le_l; [nra | exact Hc].
Qed.

(* a larger Ramey coefficient A (A is proportional to the flow rate) gives a smaller initial temperature drop *)
Theorem drop0_antitone g depth A1 A2 : 0 <= g -> 0 < depth -> 0 < A1 -> A1 <= A2 ->
  drop0_E E g depth A2 <= drop0_E E g depth A1.
Proof.
  intros Hg Hd H1 H12. unfold drop0_E. pose proof (A_E_mono depth A1 A2 Hd H1 H12). nra.
Qed.
End RameyFlow.

(* a quadratic whose derivative is non-negative at both ends of an interval does not decrease on it *)
Lemma quad_mono c2 c1 c0 d1 d2 :
  0 <= 2 * c2 * 500 + c1 -> 0 <= 2 * c2 * max_depth_m + c1 -> 500 <= d1 -> d1 <= d2 -> d2 <= max_depth_m ->
  quad_cost (c2, c1, c0) d1 <= quad_cost (c2, c1, c0) d2.
Proof.
  unfold quad_cost, max_depth_m. intros Hlo Hhi H1 H12 H2.
  assert (Hs : 0 <= c2 * (d1 + d2) + c1).
  { destruct (Qlt_le_dec c2 0); nra. }
  assert (Hdiff : (c2 * d2 * d2 + c1 * d2 + c0) - (c2 * d1 * d1 + c1 * d1 + c0) == (d2 - d1) * (c2 * (d1 + d2) + c1)) by ring.
  assert (0 <= (d2 - d1) * (c2 * (d1 + d2) + c1)) by (apply Qmult_le_0_compat; lra).
  unfold Qdiv. apply Qmult_le_compat_r; [lra | discriminate].
Qed.

(* the check evaluated over a table gives the monotonicity of each of its rows *)
Lemma table_row_mono (table : list (Z * bool * (Q * Q * Q))) : forallb mono_ok table = true ->
  forall row d1 d2, In row table -> 500 <= d1 -> d1 <= d2 -> d2 <= max_depth_m ->
  quad_cost (snd row) d1 <= quad_cost (snd row) d2.
Proof.
  intros Hall row d1 d2 Hin. apply (proj1 (forallb_forall mono_ok table) Hall) in Hin.
  destruct row as [[i s] [[c2 c1] c0]]. apply andb_prop in Hin. destruct Hin as [Ha Hb].
  apply Qle_bool_iff in Ha. apply Qle_bool_iff in Hb. now apply quad_mono.
Qed.

Lemma F2le_repeat x y n : x <= y -> Forall2 Qle (repeat x n) (repeat y n).
Proof. intros H. induction n; simpl; constructor; auto. Qed.
Lemma F2le_map_pointwise (f g : Q -> Q) l : (forall x, f x <= g x) -> Forall2 Qle (map f l) (map g l).
Proof. intros H. induction l; simpl; constructor; auto. Qed.

(* also without construction years: the share ccap / 0 is 0 and there is no year that carries it *)
Lemma cashflow_antitone_in_costs c ccap ccap' coam coam' : ccap <= ccap' -> coam <= coam' ->
  Forall2 Qle (total_cashflow (with_costs c ccap' coam')) (total_cashflow (with_costs c ccap coam)).
Proof.
  intros Hc Ho. unfold total_cashflow. apply Forall2_app.
  - cbn [with_costs ci_cy]. apply F2le_repeat. unfold capex_year. cbn [with_costs ci_cy ci_ccap].
    assert (0 <= / natQ (ci_cy c)).
    { apply Qinv_le_0_compat, natQ_nonneg. }
    assert (ccap / natQ (ci_cy c) <= ccap' / natQ (ci_cy c)) by (apply Qmult_le_compat_r; assumption).
    lra.
  - unfold total_ops. cbn [with_costs ci_kind ci_eE ci_eH ci_eC ci_pE ci_pH ci_pC ci_carbon ci_gi ci_ni ci_pCarb ci_coam].
    apply F2le_map_pointwise. intros x. lra.
Qed.

Lemma geo0_mono q : 0 <= q -> forall l l', Forall2 Qle l l' -> geo0 q l <= geo0 q l'.
Proof. intros Hq l l' H. induction H as [|x y l l' Hxy _ IH]; simpl; [lra | nra]. Qed.
Lemma geo1_mono q l l' : 0 <= q -> Forall2 Qle l l' -> geo1 q l <= geo1 q l'.
Proof. intros Hq H. unfold geo1. pose proof (geo0_mono q Hq l l' H). nra. Qed.

Lemma bic_num_linear c cap annual :
  bic_num_spec c cap annual == (1 + l_gtr c / (1 - l_gtr c)) * (cap * bic_cap_coeff c + geo1 (bic_qg c) annual).
Proof.
  unfold bic_num_spec. cbv zeta. rewrite bic_combine_factor. apply Qmult_comp; [reflexivity|].
  unfold bic_it_coeff, bic_cap_coeff. cbv zeta. unfold Qdiv. ring.
Qed.

(* every model's levelized cost is numerator / energy * unit: it follows its numerator *)
Lemma ratio_mono num num' den unit : 0 <= unit -> 0 < den -> num <= num' -> num / den * unit <= num' / den * unit.
Proof.
  intros Hu Hd Hn. apply Qmult_le_compat_r; [|assumption]. apply Qmult_le_compat_r; [assumption|].
  apply Qlt_le_weak. now apply Qinv_lt_0_compat.
Qed.

Lemma fcr_num_mono c cap cap' om om' xs xs' : 0 <= l_fcr c * (1 + l_inflc c) ->
  cap <= cap' -> om <= om' -> xs <= xs' -> fcr_num c cap om xs <= fcr_num c cap' om' xs'.
Proof. intros. unfold fcr_num. nra. Qed.

Lemma std_num_spec_mono c cap cap' a a' : 0 <= 1 + l_inflc c -> 0 <= / (1 + l_disc c) ->
  cap <= cap' -> Forall2 Qle a a' -> std_num_spec c cap a <= std_num_spec c cap' a'.
Proof. intros Hi Hq Hc Ha. unfold std_num_spec. pose proof (geo0_mono _ Hq _ _ Ha). nra. Qed.

Lemma bic_num_spec_mono c cap cap' a a' : 0 <= 1 + l_gtr c / (1 - l_gtr c) -> 0 <= bic_cap_coeff c -> 0 <= bic_qg c ->
  cap <= cap' -> Forall2 Qle a a' -> bic_num_spec c cap a <= bic_num_spec c cap' a'.
Proof.
  intros Hg Hk Hq Hc Ha. rewrite !bic_num_linear. pose proof (geo1_mono _ _ _ Hq Ha).
  assert (cap * bic_cap_coeff c <= cap' * bic_cap_coeff c) by nra. nra.
Qed.

(* capital cost is monotone in every component when the credit rate is at most 100 % *)
Lemma ccap_mono_in_pre k pre pre' : k_ritc k <= 1 -> pre <= pre' ->
  (pre - (if k_ritc_provided k then k_ritc k * pre else 0) + k_flat k - k_other k - k_grant k)
  <= (pre' - (if k_ritc_provided k then k_ritc k * pre' else 0) + k_flat k - k_other k - k_grant k).
Proof. intros Hr Hp. destruct (k_ritc_provided k); nra. Qed.

Lemma cstim_mono_adj k adj adj' : k_stim_valid k = false -> 0 <= k_ninj k -> adj <= adj' ->
  q105 * q115 * adj * k_ninj k * q125 <= q105 * q115 * adj' * k_ninj k * q125.
Proof. intros _ Hn Ha. unfold q105, q115, q125. nra. Qed.

(* correlated components are (adjustment factor) x (non-negative base) *)
Lemma adj_component_mono base adj adj' : 0 <= base -> adj <= adj' -> adj * base <= adj' * base.
Proof. intros Hb Ha. now apply Qmult_le_compat_r. Qed.

(* the floor that the reader puts under a gradient (norm_gradient) *)
Lemma floor_at_mono lo a b : a <= b -> (if Qltb a lo then lo else a) <= (if Qltb b lo then lo else b).
Proof. intros H. destruct (Qltb_spec a lo), (Qltb_spec b lo); lra. Qed.
