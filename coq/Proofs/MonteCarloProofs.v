(* Proofs/MonteCarloProofs.v - about Model/MonteCarlo.v, for C13 and the lock clauses of C14: the predicates on lock states (just below); the draws of a pool in closed form under both seeding disciplines;
   supports of the transforms and soundness of the support test; the guarded append - what one step can do, the file
   invariant under every schedule, no row lost without a time-out (current code) or under mutual exclusion (both
   variants), and the named schedules evaluated. *)
From Coq Require Import List Arith Bool QArith Qminmax Qround Permutation Lia Lqa.
From Verif Require Import Model.MonteCarlo Proofs.FlatFacts.
Import ListNotations.
Open Scope nat_scope.

(* rows in the file = the work packages that ended in DoneOk, each exactly once: under EVERY schedule, both variants *)
Definition file_inv (st : lstate) : Prop :=
  NoDup (file st) /\ forall t, In t (file st) <-> phases st t = PDoneOk.

(* mutual exclusion, as a property of a schedule: before every step at most one task is between its
   successful check and its release, and nobody times out *)
Definition mutex_state (st : lstate) : Prop :=
  forall t u, critical (phases st t) = true -> critical (phases st u) = true -> t = u.

Fixpoint mutex_run_gen (early : bool) (st : lstate) (sched : list (nat * action)) : Prop :=
  match sched with
  | [] => True
  | (t, a) :: r => a = Step /\ mutex_state st /\ mutex_run_gen early (lstep_gen early st t a) r
  end.
Definition mutex_run := mutex_run_gen true.
Definition mutex_run_pinned := mutex_run_gen false.

Lemma span_length s p d : length (span s p d) = d.
Proof. unfold span. rewrite map_length, seq_length. reflexivity. Qed.

Lemma span_nth s p d k dflt : k < d -> nth k (span s p d) dflt = (s, p + k).
Proof. apply (nth_map_seq (fun k => (s, p + k)) 0). Qed.

Lemma span_inj s p s' p' d : 0 < d -> span s p d = span s' p' d -> s = s' /\ p = p'.
Proof.
  intros Hd E. apply (f_equal (fun v => nth 0 v (0, 0))) in E.
  rewrite !span_nth in E by exact Hd. injection E as -> Ep. split; lia.
Qed.

Lemma run_sched_fresh seeds d : forall sched ws t,
  run_sched FreshPerTask seeds d ws t sched = map (fun i => span (seeds i) 0 d) (seq t (length sched)).
Proof.
  induction sched as [|w r IH]; intros ws t; cbn [run_sched length seq map]; [reflexivity|].
  f_equal. apply IH.
Qed.

Lemma run_pool_fresh_length seeds d g0 sched : length (run_pool FreshPerTask seeds d g0 sched) = length sched.
Proof. unfold run_pool. rewrite run_sched_fresh, map_length, seq_length. reflexivity. Qed.

Lemma run_pool_fresh_nth seeds d g0 sched i : i < length sched ->
  nth i (run_pool FreshPerTask seeds d g0 sched) [] = span (seeds i) 0 d.
Proof. unfold run_pool. rewrite run_sched_fresh. apply (nth_map_seq (fun i => span (seeds i) 0 d) 0). Qed.

Lemma fresh_draw seeds d g0 sched i k : i < length sched -> k < d ->
  nth k (nth i (run_pool FreshPerTask seeds d g0 sched) []) (0, 0) = (seeds i, k).
Proof. intros Hi Hk. rewrite run_pool_fresh_nth, span_nth by assumption. reflexivity. Qed.

Lemma run_sched_length disc seeds d : forall sched ws t, length (run_sched disc seeds d ws t sched) = length sched.
Proof. induction sched as [|w r IH]; intros; cbn [run_sched length]; [reflexivity|]. f_equal. apply IH. Qed.

(* invariant of the run: every worker's generator is the parent's stream s, advanced by d draws for each of the c w tasks
   the worker has run *)
Lemma run_sched_fork seeds d s p0 : forall sched ws t (c : nat -> nat),
  (forall w, ws w = G s (p0 + d * c w)) ->
  forall i, i < length sched ->
    nth i (run_sched ForkCopy seeds d ws t sched) []
    = span s (p0 + d * (c (nth i sched 0) + count_occ Nat.eq_dec (firstn i sched) (nth i sched 0))) d.
Proof.
  induction sched as [|w r IH]; intros ws t c Hc i Hi; cbn [length] in Hi; [lia|].
  destruct i as [|i]; cbn [run_sched nth firstn count_occ].
  - unfold run_task, take_draws. cbn [fst]. rewrite Hc. cbn [g_stream g_pos]. f_equal. lia.
  - rewrite (IH _ (S t) (fun v => if Nat.eqb v w then S (c w) else c v)).
    + f_equal. destruct (Nat.eq_dec w (nth i r 0)) as [E|E].
      * subst w. rewrite Nat.eqb_refl. lia.
      * destruct (Nat.eqb_spec (nth i r 0) w); [congruence|]. lia.
    + intros v. unfold run_task, take_draws, upd. cbn [snd]. rewrite Hc. cbn [g_stream g_pos].
      destruct (Nat.eqb v w); [f_equal; lia | apply Hc].
    + lia.
Qed.

(* task i of a pool of forked copies re-reads the parent's stream at an offset that depends only on its rank *)
Lemma forkcopy_nth seeds d g0 sched i : i < length sched ->
  nth i (run_pool ForkCopy seeds d g0 sched) [] = span (g_stream g0) (g_pos g0 + d * rank sched i) d.
Proof.
  intros H. unfold run_pool, rank.
  rewrite (run_sched_fork seeds d (g_stream g0) (g_pos g0) sched _ 0 (fun _ => 0)).
  - reflexivity.
  - intros _. destruct g0 as [s p]. cbn [g_stream g_pos]. f_equal. lia.
  - exact H.
Qed.

Lemma first_task_rank w : forall sched, In w sched ->
  exists i, i < length sched /\ nth i sched 0 = w /\ rank sched i = 0.
Proof.
  unfold rank. induction sched as [|a r IH]; intros H; [contradiction|].
  destruct (Nat.eq_dec a w) as [E|E].
  - exists 0. cbn. split; [lia|]. split; [exact E | reflexivity].
  - destruct H as [H|H]; [congruence|]. destruct (IH H) as (i & Hi & Hn & Hc).
    exists (S i). cbn [length nth firstn count_occ]. split; [lia|]. split; [exact Hn|].
    rewrite Hn in *. destruct (Nat.eq_dec a w); [congruence | exact Hc].
Qed.

Open Scope Q_scope.

Lemma uniform_support lo hi u : lo <= hi -> 0 <= u -> u <= 1 -> lo <= uniform_t lo hi u /\ uniform_t lo hi u <= hi.
Proof. intros H0 H1 H2. unfold uniform_t. split; nra. Qed.

Lemma uniform_support_strict lo hi u : lo < hi -> 0 <= u -> u < 1 -> uniform_t lo hi u < hi.
Proof. intros H0 H1 H2. unfold uniform_t. nra. Qed.

Section Triangular.
  Variable sqrtf : Q -> Q.
  Hypothesis sqrt_nonneg : forall x, 0 <= x -> 0 <= sqrtf x.
  Hypothesis sqrt_mono : forall x y, 0 <= x -> x <= y -> sqrtf x <= sqrtf y.
  Hypothesis sqrt_square : forall a, 0 <= a -> sqrtf (a * a) == a.

  (* either branch of the transform takes the root of v * (a * base) where v * base <= a, that is of at most a * a *)
  Lemma sqrt_branch v a base : 0 <= v -> 0 <= a -> 0 <= base -> v * base <= a ->
    0 <= sqrtf (v * (a * base)) /\ sqrtf (v * (a * base)) <= a.
  Proof.
    intros Hv Ha Hb Hva.
    assert (Hab : 0 <= a * base) by nra.
    assert (H1 : 0 <= v * (a * base)) by nra.
    assert (H2 : v * (a * base) <= a * a) by (setoid_replace (v * (a * base)) with (v * base * a) by ring; nra).
    split; [apply sqrt_nonneg; exact H1|].
    pose proof (sqrt_mono _ _ H1 H2) as S. rewrite (sqrt_square a Ha) in S. exact S.
  Qed.

  (* the variate falls on the side of the mode m that the uniform variate selects *)
  Lemma triangular_mode_side l m r u : l <= m -> m <= r -> l < r -> 0 <= u -> u <= 1 ->
    let x := triangular_t sqrtf l m r u in
    if Qle_bool u ((m - l) / (r - l)) then l <= x /\ x <= m else m <= x /\ x <= r.
  Proof.
    intros Hl Hm Hlr Hu0 Hu1. unfold triangular_t. cbv zeta.
    assert (Hq : (m - l) / (r - l) * (r - l) == m - l) by (field; lra).
    destruct (Qle_bool u ((m - l) / (r - l))) eqn:E.
    - apply Qle_bool_iff in E.
      destruct (sqrt_branch u (m - l) (r - l)) as [S0 S1]; [lra | lra | lra | nra |]. split; lra.
    - assert (E' : (m - l) / (r - l) < u).
      { apply Qnot_le_lt. intros C. apply Qle_bool_iff in C. congruence. }
      destruct (sqrt_branch (1 - u) (r - m) (r - l)) as [S0 S1]; [lra | lra | lra | nra |]. split; lra.
  Qed.

  Lemma triangular_support l m r u : l <= m -> m <= r -> l < r -> 0 <= u -> u <= 1 ->
    l <= triangular_t sqrtf l m r u /\ triangular_t sqrtf l m r u <= r.
  Proof.
    intros Hl Hm Hlr Hu0 Hu1. pose proof (triangular_mode_side l m r u Hl Hm Hlr Hu0 Hu1) as H. cbv zeta in H.
    destruct (Qle_bool u ((m - l) / (r - l))); split; lra.
  Qed.
End Triangular.

Lemma Qle_bool_between a x b : Qle_bool a x && Qle_bool x b = true -> a <= x /\ x <= b.
Proof. intros H. apply andb_true_iff in H. rewrite !Qle_bool_iff in H. exact H. Qed.

(* the boolean support test used on the rows of real runs is sound *)
Lemma in_support_uniform a b x : in_support DUniform [a; b] x = true -> Qmin a b <= x /\ x <= Qmax a b.
Proof. apply Qle_bool_between. Qed.

Lemma in_support_triangular l m r x : in_support DTriangular [l; m; r] x = true -> l <= x /\ x <= r.
Proof. apply Qle_bool_between. Qed.

Lemma in_support_lognormal a b x : in_support DLognormal [a; b] x = true -> 0 < x.
Proof.
  cbn. intros H. apply negb_true_iff in H. apply Qnot_le_lt. intros C. apply Qle_bool_iff in C. congruence.
Qed.

Lemma in_support_binomial n p x : in_support DBinomial [n; p] x = true ->
  0 <= x /\ x <= n /\ exists k : Z, x == inject_Z k.
Proof.
  cbn. intros H. apply andb_true_iff in H. destruct H as [H H3]. apply Qle_bool_between in H.
  split; [apply H|]. split; [apply H|].
  exists (Qfloor x). unfold is_integer in H3. apply Qeq_bool_iff in H3. symmetry. exact H3.
Qed.

Close Scope Q_scope.

Lemma setp_same ph t p : setp ph t p t = p.
Proof. unfold setp. rewrite Nat.eqb_refl. reflexivity. Qed.
Lemma setp_other ph t p u : u <> t -> setp ph t p u = ph u.
Proof. intros H. unfold setp. destruct (Nat.eqb_spec u t); [contradiction | reflexivity]. Qed.

Lemma owned_by_true l t : owned_by l t = true <-> l = Some t.
Proof.
  destruct l as [o|]; cbn; [|split; discriminate].
  split; intros H; [apply Nat.eqb_eq in H; congruence | inversion H; apply Nat.eqb_refl].
Qed.

Lemma file_inv_idle l0 : file_inv (LS l0 (fun _ => PIdle) []).
Proof. split; [constructor|]. intros t. cbn. split; [contradiction | discriminate]. Qed.

Lemma file_inv_init : file_inv linit.
Proof. apply file_inv_idle. Qed.

(* what one step of the protocol can do, for every pass-phrase assignment and both variants: nothing; or move task t,
   which has not released, to a phase other than DoneOk and keep the file (to DoneLost only by the time-out or in the
   variant without the early flush); or move it to DoneOk and append its row *)
Inductive step_result (early : bool) (st : lstate) (t : nat) (a : action) : lstate -> Prop :=
| step_same : step_result early st t a st
| step_keep l p : p <> PDoneOk -> phases st t <> PDoneOk -> (p = PDoneLost -> a = Timeout \/ early = false) ->
    step_result early st t a (LS l (setp (phases st) t p) (file st))
| step_add l : phases st t <> PDoneOk -> step_result early st t a (LS l (setp (phases st) t PDoneOk) (file st ++ [t])).

Lemma lstep_cases pass early st t a : step_result early st t a (lstep_pass pass early st t a).
Proof.
  unfold lstep_pass. destruct (phases st t) eqn:P; destruct a; try apply step_same.
  - (* idle, step: the check *)
    destruct (free_for (lock st) (pass t)); [apply step_keep; congruence | apply step_same].
  - (* idle, time-out: gives up *)
    apply step_keep; [discriminate | congruence | auto].
  - (* idle, take-over of a stale lock *)
    apply step_keep; congruence.
  - (* checked: writes its pass *)
    apply step_keep; congruence.
  - (* written: verifies, goes on or back to idle *)
    destruct (owned_by (lock st) (pass t)); apply step_keep; congruence.
  - (* holding: the row, then the release; refused by a foreign pass, the row survives only if flushed early *)
    destruct (owned_by (lock st) (pass t)); [apply step_add; congruence|].
    destruct early; [apply step_add; congruence | apply step_keep; [discriminate | congruence | auto]].
Qed.

Lemma file_inv_keep st t p l : file_inv st -> p <> PDoneOk -> phases st t <> PDoneOk ->
  file_inv (LS l (setp (phases st) t p) (file st)).
Proof.
  intros [Hnd Hin] Hp Ht. split; [exact Hnd|]. intros u. cbn [file phases].
  destruct (Nat.eq_dec u t) as [->|Hu].
  - rewrite setp_same, Hin. split; intros; congruence.
  - rewrite setp_other by exact Hu. apply Hin.
Qed.

Lemma file_inv_add st t l : file_inv st -> phases st t <> PDoneOk ->
  file_inv (LS l (setp (phases st) t PDoneOk) (file st ++ [t])).
Proof.
  intros [Hnd Hin] Ht. rewrite <- Hin in Ht. split; cbn [file phases].
  - apply (NoDup_Add (Add_app t (file st) [])). rewrite app_nil_r. split; assumption.
  - intros u. rewrite in_app_iff. cbn [In]. destruct (Nat.eq_dec u t) as [->|Hu].
    + rewrite setp_same. tauto.
    + rewrite setp_other, <- Hin by exact Hu. split; [intros [H|[H|[]]]; [exact H | congruence] | tauto].
Qed.

Lemma file_inv_step pass early st t a : file_inv st -> file_inv (lstep_pass pass early st t a).
Proof.
  intros Inv. destruct (lstep_cases pass early st t a) as [|l p Hp Ht _|l Ht];
    [exact Inv | apply file_inv_keep | apply file_inv_add]; assumption.
Qed.

Lemma file_inv_run early : forall sched st, file_inv st -> file_inv (lrun_gen early st sched).
Proof.
  induction sched as [|[t a] r IH]; intros st H; cbn [lrun_gen]; [exact H|]. apply IH, (file_inv_step (fun t => t)), H.
Qed.

Lemma finished_in_file st t : file_inv st -> phases st t <> PDoneLost -> finished (phases st t) = true -> In t (file st).
Proof. intros [_ Hin] Hn F. apply Hin. destruct (phases st t); try discriminate; [reflexivity | congruence]. Qed.

(* the current code (row flushed while the lock is believed held): without a time-out no row is lost, whatever the
   interleaving - mutual exclusion is not needed *)
Lemma no_loss_step st t a : a <> Timeout -> (forall u, phases st u <> PDoneLost) ->
  forall u, phases (lstep st t a) u <> PDoneLost.
Proof.
  intros Ha H.
  (* a state that differs in the phase p of t only *)
  assert (Moved : forall p l f, p <> PDoneLost -> forall u, phases (LS l (setp (phases st) t p) f) u <> PDoneLost).
  { intros p l f Hp u. cbn [phases]. destruct (Nat.eq_dec u t) as [->|Hu].
    - rewrite setp_same. exact Hp.
    - rewrite setp_other by exact Hu. apply H. }
  unfold lstep, lstep_gen. destruct (lstep_cases (fun t => t) true st t a) as [|l p _ _ Hl|l _].
  - exact H.
  - apply Moved. intros E. destruct (Hl E); congruence.
  - apply Moved. discriminate.
Qed.

Lemma no_timeout_no_loss : forall sched st, (forall u, phases st u <> PDoneLost) ->
  Forall (fun s => snd s <> Timeout) sched -> forall u, phases (lrun st sched) u <> PDoneLost.
Proof.
  induction sched as [|[t a] r IH]; intros st H F; [exact H|].
  inversion F as [|? ? Ha Fr]; subst. cbn [snd] in Ha.
  change (lrun st ((t, a) :: r)) with (lrun (lstep st t a) r). apply IH; [apply no_loss_step; assumption | exact Fr].
Qed.

(* from any content of the lock file (e.g. a stale lock left by a killed run), with take-overs allowed *)
Lemma flush_no_loss_from l0 sched : Forall (fun s => snd s <> Timeout) sched ->
  let st := lrun (LS l0 (fun _ => PIdle) []) sched in
  forall t, finished (phases st t) = true -> In t (file st).
Proof.
  intros F st t. apply finished_in_file.
  - apply file_inv_run, file_inv_idle.
  - apply no_timeout_no_loss; [discriminate | exact F].
Qed.

(* so the file is a permutation of the finished work packages *)
Lemma lock_file_perm_from l0 sched tasks : Forall (fun s => snd s <> Timeout) sched -> NoDup tasks ->
  let st := lrun (LS l0 (fun _ => PIdle) []) sched in
  (forall t, In t tasks <-> finished (phases st t) = true) -> Permutation tasks (file st).
Proof.
  intros F ND st H. destruct (file_inv_run true sched _ (file_inv_idle l0)) as [NDf Hf].
  apply NoDup_Permutation; [exact ND | exact NDf|]. intros t. rewrite H. split.
  - apply (flush_no_loss_from l0 sched F).
  - intros Ht. apply Hf in Ht. unfold st, lrun. rewrite Ht. reflexivity.
Qed.

(* for an interleaving of the two work packages 0 and 1 *)
Lemma mutex_state_two st : (forall t, phases st (S (S t)) = PIdle) ->
  critical (phases st 0) && critical (phases st 1) = false -> mutex_state st.
Proof.
  intros Hi H t u Ht Hu.
  assert (B : forall v, critical (phases st v) = true -> v = 0 \/ v = 1).
  { intros [|[|v]] Hv; auto. rewrite Hi in Hv. discriminate Hv. }
  destruct (B t Ht) as [->| ->], (B u Hu) as [->| ->]; try reflexivity; rewrite Ht, Hu in H; discriminate H.
Qed.

(* whoever is in Written or Holding has his pass in the lock file, and nobody has lost a row: holds along a schedule only
   under mutex_state *)
Definition hold_inv (st : lstate) : Prop :=
  (forall t, phases st t = PWritten \/ phases st t = PHolding -> lock st = Some t) /\
  (forall t, phases st t <> PDoneLost).

Lemma hold_inv_step early st t : hold_inv st -> mutex_state st -> hold_inv (lstep_gen early st t Step).
Proof.
  intros [Hl Hn] Hm. unfold lstep_gen, lstep_pass.
  (* the new state has t in phase p and l in the lock file: the lock claim is owed for t and for the others *)
  assert (Moved : forall p l f, (p = PWritten \/ p = PHolding -> l = Some t) -> p <> PDoneLost ->
            (forall u, u <> t -> phases st u = PWritten \/ phases st u = PHolding -> l = Some u) ->
            hold_inv (LS l (setp (phases st) t p) f)).
  { intros p l f Hp Hd Ho. split; intros u; cbn [lock phases]; destruct (Nat.eq_dec u t) as [->|Hu];
      rewrite ?setp_same; rewrite ?setp_other by exact Hu; auto. }
  (* while t is inside its critical section nobody else is, so nothing is owed for the others *)
  assert (Nobody_else : critical (phases st t) = true ->
            forall l u, u <> t -> phases st u = PWritten \/ phases st u = PHolding -> l = Some u).
  { intros Ct l u Hu Hp. exfalso. apply Hu, Hm; [destruct Hp as [E|E]; rewrite E; reflexivity | exact Ct]. }
  destruct (phases st t) eqn:P; try (split; assumption).
  - (* idle: check *)
    destruct (free_for (lock st) t); [|split; assumption].
    apply Moved; [intros [H|H]; discriminate | discriminate | intros u _; apply Hl].
  - (* checked: write *)
    apply Moved; [reflexivity | discriminate | intros u; apply Nobody_else; reflexivity].
  - (* written: verify *)
    rewrite (proj2 (owned_by_true _ _) (Hl t (or_introl P))).
    apply Moved; [intros _; apply Hl; left; exact P | discriminate | intros u _; apply Hl].
  - (* holding: release *)
    rewrite (proj2 (owned_by_true _ _) (Hl t (or_intror P))).
    apply Moved; [intros [H|H]; discriminate | discriminate | intros u; apply Nobody_else; reflexivity].
Qed.

Lemma hold_inv_run early : forall sched st, hold_inv st -> mutex_run_gen early st sched -> hold_inv (lrun_gen early st sched).
Proof.
  induction sched as [|[t a] r IH]; intros st H M; cbn [lrun_gen]; [exact H|].
  cbn [mutex_run_gen] in M. destruct M as (-> & Hm & M). apply IH; [|exact M]. apply hold_inv_step; assumption.
Qed.

Lemma hold_inv_init : hold_inv linit.
Proof. split; intros t; cbn; [intros [H|H]; discriminate | discriminate]. Qed.

(* with mutual exclusion every finished work package has its row in the file (both variants) *)
Lemma mutex_no_loss early sched : mutex_run_gen early linit sched ->
  forall t, finished (phases (lrun_gen early linit sched) t) = true -> In t (file (lrun_gen early linit sched)).
Proof.
  intros M t. apply finished_in_file; [apply file_inv_run, file_inv_init|].
  apply (hold_inv_run early sched linit hold_inv_init M).
Qed.

(* the protocol itself does not give mutual exclusion.  Code before 1d8733c: two work packages finish, one row *)
Lemma lock_loses_row_pinned :
  let st := lrun_pinned linit double_acquire_schedule in
  Forall (fun s => snd s = Step) double_acquire_schedule /\
  phases st 0 = PDoneLost /\ phases st 1 = PDoneOk /\ file st = [1].
Proof. split; [repeat constructor|]. split; [|split]; reflexivity. Qed.

(* current code, same interleaving: both rows *)
Lemma lock_keeps_rows : file (lrun linit double_acquire_schedule) = [0; 1].
Proof. reflexivity. Qed.

(* the time-out still drops a row *)
Lemma lock_timeout_loses_row :
  let st := lrun linit timeout_schedule in
  phases st 0 = PDoneLost /\ phases st 1 = PDoneOk /\ file st = [1].
Proof. split; [|split]; reflexivity. Qed.

(* a stale lock is taken over and every work package of the run leaves its row (current code) *)
Lemma stale_lock_keeps_rows : file (lrun (lstale 7) (stale_serial_schedule 3)) = [0; 1; 2].
Proof. reflexivity. Qed.
