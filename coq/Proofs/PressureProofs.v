(* Proofs/PressureProofs.v - lemmas about Model/Pressure.v.
   The production loop is a ramp pf - c*t clamped at p0 ([prod_loop_nth]); what C15 says of the series is read off
   that closed form ([prod_closed_*]), and the step count int((100/rate)*k) is settled separately ([depletion_steps_*]). *)
From Coq Require Import QArith Qminmax Qround Qabs List ZArith Bool Lia Lqa.
From Verif Require Import Base.Flat Proofs.FlatFacts Model.Pressure.
Import ListNotations.
Open Scope Q_scope.

Lemma natQ_add a b : natQ (a + b) == natQ a + natQ b.
Proof. unfold natQ. rewrite Nat2Z.inj_add, inject_Z_plus. reflexivity. Qed.

Lemma Qeqb_false a b : Qeqb a b = false -> ~ a == b.
Proof. apply FlatFacts.Qeqb_false. Qed.

Lemma natQ_S_mul c t : c * natQ (S t) == c * natQ t + c.
Proof. rewrite natQ_S. lra. Qed.

Lemma inject_Z_pos s : (1 <= s)%Z -> 0 < inject_Z s.
Proof. intros H. change 0 with (inject_Z 0). rewrite <- Zlt_Qlt. lia. Qed.

Lemma Qdiv_nonneg a b : 0 <= a -> 0 < b -> 0 <= a / b.
Proof. intros Ha Hb. apply Qle_shift_div_l; [exact Hb|]. lra. Qed.

Lemma Qdiv_div_r a b c : ~ b == 0 -> ~ c == 0 -> a / (c / b) == a * b / c.
Proof. intros Hb Hc. field. split; assumption. Qed.

Lemma nth_cons_spec (g : nat -> Q) a tl n :
  a == g O -> (forall j, (S j < n)%nat -> nth j tl 0 == g (S j)) ->
  forall t, (t < n)%nat -> nth t (a :: tl) 0 == g t.
Proof. intros Ha Htl [|j] Ht; [exact Ha|apply Htl, Ht]. Qed.

(* Python int() of a non-negative rational is its floor *)
Lemma Qtrunc_nonneg_floor x : 0 <= x -> Qtrunc x = Qfloor x.
Proof.
  destruct x as [n d]. unfold Qle, Qtrunc, Qfloor. cbn. intros H.
  apply Z.quot_div_nonneg; lia.
Qed.

Lemma Qtrunc_bounds x : 0 <= x -> inject_Z (Qtrunc x) <= x /\ x < inject_Z (Qtrunc x) + 1.
Proof.
  intros H. rewrite (Qtrunc_nonneg_floor _ H). split.
  - apply Qfloor_le.
  - pose proof (Qlt_floor x) as L. rewrite inject_Z_plus in L. exact L.
Qed.

Lemma Qtrunc_ge_1 x : 1 <= x -> (1 <= Qtrunc x)%Z.
Proof.
  intros H. assert (H0 : 0 <= x) by lra.
  destruct (Qtrunc_bounds x H0) as [_ U].
  assert (L : inject_Z 0 < inject_Z (Qtrunc x)) by (change (inject_Z 0) with 0; lra).
  rewrite <- Zlt_Qlt in L. lia.
Qed.

Lemma Qtrunc_lt_1 x : 0 <= x -> x < 1 -> Qtrunc x = 0%Z.
Proof.
  intros H0 H1. destruct (Qtrunc_bounds x H0) as [L U].
  assert (A : inject_Z (Qtrunc x) < inject_Z 1) by (change (inject_Z 1) with 1; lra).
  assert (B : inject_Z (-1) < inject_Z (Qtrunc x)) by (change (inject_Z (-1)) with (-1 # 1); lra).
  rewrite <- Zlt_Qlt in A, B. lia.
Qed.

Lemma depletion_steps_pos rate k :
  0 < rate -> depletion_steps rate k = Some (Qtrunc (100 / rate * natQ k)).
Proof.
  intros H. unfold depletion_steps. destruct (Qeqb rate 0) eqn:E; [|reflexivity].
  apply Qeqb_true in E. lra.
Qed.

Lemma steps_expr rate k : 100 / rate * natQ k == 100 * natQ k / rate.
Proof. unfold Qdiv. lra. Qed.

(* at most 100 % per time step: a whole number s >= 1 of steps, the integer part of 100*k/rate *)
Lemma depletion_steps_whole rate k : 0 < rate -> rate <= 100 * natQ k ->
  exists s, depletion_steps rate k = Some s /\ (1 <= s)%Z /\
            inject_Z s <= 100 * natQ k / rate /\ 100 * natQ k / rate < inject_Z s + 1.
Proof.
  intros Hr Hrk. pose proof (steps_expr rate k) as Ex.
  assert (Hx1 : 1 <= 100 * natQ k / rate) by (apply Qle_shift_div_l; lra).
  destruct (Qtrunc_bounds (100 / rate * natQ k)) as [L U]; [lra|].
  exists (Qtrunc (100 / rate * natQ k)). split; [apply depletion_steps_pos, Hr|].
  split; [apply Qtrunc_ge_1; lra|]. split; lra.
Qed.

(* more than 100 % per time step: no step at all *)
Lemma depletion_steps_fast rate k : 100 * natQ k < rate -> depletion_steps rate k = Some 0%Z.
Proof.
  intros Hrk. pose proof (natQ_nonneg k) as Hk. pose proof (steps_expr rate k) as Ex.
  assert (Hr : 0 < rate) by lra.
  assert (H0 : 0 <= 100 * natQ k / rate) by (apply Qdiv_nonneg; lra).
  assert (H1 : 100 * natQ k / rate < 1) by (apply Qlt_shift_div_r; lra).
  rewrite (depletion_steps_pos rate k Hr). f_equal. apply Qtrunc_lt_1; lra.
Qed.

Lemma prod_loop_length pf c p0 rem : forall t, length (prod_loop pf c p0 t rem) = rem.
Proof.
  induction rem as [|r IH]; intros t; [reflexivity|]. cbn [prod_loop].
  destruct (Qltb _ _).
  - apply repeat_length.
  - cbn. now rewrite IH.
Qed.

(* once below p0 the ramp stays below (c >= 0), so the [break] loses nothing *)
Lemma prod_loop_nth pf c p0 : 0 <= c -> forall rem t i, (i < rem)%nat ->
  nth i (prod_loop pf c p0 t rem) 0 == Qmax p0 (pf - c * natQ (t + i)).
Proof.
  intros Hc. induction rem as [|r IH]; intros t i Hi; [lia|]. cbn [prod_loop].
  destruct (Qltb (pf - c * natQ t) p0) eqn:E.
  - apply Qltb_true in E. rewrite nth_repeat_lt by exact Hi.
    symmetry. apply Q.max_l.
    assert (natQ t <= natQ (t + i)) by (apply natQ_le; lia). nra.
  - apply Qltb_false in E. destruct i as [|j].
    + cbn [nth]. rewrite Nat.add_0_r. symmetry. apply Q.max_r. exact E.
    + cbn [nth]. rewrite IH by lia. replace (S t + j)%nat with (t + S j)%nat by lia. reflexivity.
Qed.

Lemma overpressure_ge p0 op : 0 <= p0 -> 100 <= op -> p0 <= p0 * (op / 100).
Proof. intros Hp Hop. change (op / 100) with (op * (1 # 100)). nra. Qed.

(* overpressure and slope of the ramp: start pf >= p0, slope c >= 0, and s steps of c make up pf - p0 *)
Lemma prod_slope p0 op s : 0 <= p0 -> 100 <= op -> (1 <= s)%Z ->
  p0 <= p0 * (op / 100) /\ 0 <= (p0 * (op / 100) - p0) / inject_Z s /\
  inject_Z s * ((p0 * (op / 100) - p0) / inject_Z s) == p0 * (op / 100) - p0.
Proof.
  intros Hp Hop Hs. pose proof (inject_Z_pos s Hs) as Hsq. pose proof (overpressure_ge p0 op Hp Hop) as Hpf.
  split; [exact Hpf|]. split; [apply Qdiv_nonneg; lra|apply Qmult_div_r; lra].
Qed.

Lemma prod_pressure_with_closed life k p0 op s :
  (0 < life * k)%nat -> 0 <= p0 -> 100 <= op -> (1 <= s)%Z ->
  exists l, prod_pressure_with life k p0 op (Some s) = Vals l /\ length l = (life * k)%nat /\
            forall t, (t < life * k)%nat -> nth t l 0 == prod_closed p0 op s t.
Proof.
  intros Hn Hp Hop Hs. destruct (prod_slope p0 op s Hp Hop Hs) as (Hpf & Hc & _).
  unfold prod_pressure_with, prod_closed.
  set (pf := p0 * (op / 100)) in *. set (c := (pf - p0) / inject_Z s) in *.
  destruct (Qeqb op 100) eqn:E.
  - (* op = 100: pf = p0 and the ramp is clamped from the start *)
    apply Qeqb_true in E.
    assert (Hpf' : pf <= p0) by (unfold pf; change (op / 100) with (op * (1 # 100)); nra).
    exists (repeat p0 (life * k)). split; [reflexivity|]. split; [apply repeat_length|].
    intros t Ht. rewrite nth_repeat_lt by exact Ht. symmetry. apply Q.max_l.
    pose proof (Qmult_le_0_compat _ _ Hc (natQ_nonneg t)). lra.
  - destruct (life * k)%nat as [|r]; [lia|].
    destruct (Z.eqb_spec s 0) as [Ez|_]; [lia|].
    exists (pf :: prod_loop pf c p0 1 r). split; [reflexivity|].
    split; [cbn [length]; now rewrite prod_loop_length|].
    apply nth_cons_spec.
    + change (natQ 0) with 0. rewrite Q.max_r; lra.
    + intros j Hj. apply (prod_loop_nth pf c p0 Hc r 1 j), Nat.succ_lt_mono, Hj.
Qed.

Lemma prod_closed_ge p0 op s t : p0 <= prod_closed p0 op s t.
Proof. apply Q.le_max_l. Qed.

Lemma prod_closed_start p0 op s : 0 <= p0 -> 100 <= op -> prod_closed p0 op s 0 == p0 * (op / 100).
Proof.
  intros Hp Hop. pose proof (overpressure_ge p0 op Hp Hop).
  unfold prod_closed. change (natQ 0) with 0. rewrite Q.max_r; lra.
Qed.

Lemma prod_closed_step_le p0 op s t : 0 <= p0 -> 100 <= op -> (1 <= s)%Z ->
  prod_closed p0 op s (S t) <= prod_closed p0 op s t.
Proof.
  intros Hp Hop Hs. destruct (prod_slope p0 op s Hp Hop Hs) as (_ & Hc & _).
  apply Q.max_le_compat_l. pose proof (natQ_S_mul ((p0 * (op / 100) - p0) / inject_Z s) t). lra.
Qed.

(* while t+1 <= s the ramp is above p0, so the clamp is idle *)
Lemma prod_closed_exact_step p0 op s t : 0 <= p0 -> 100 <= op -> (1 <= s)%Z -> (Z.of_nat (S t) <= s)%Z ->
  prod_closed p0 op s (S t) == prod_closed p0 op s t - (p0 * (op / 100) - p0) / inject_Z s.
Proof.
  intros Hp Hop Hs Ht. destruct (prod_slope p0 op s Hp Hop Hs) as (_ & Hc & Hfull).
  assert (Hts : natQ (S t) <= inject_Z s) by (unfold natQ; rewrite <- Zle_Qle; exact Ht).
  unfold prod_closed. set (pf := p0 * (op / 100)) in *. set (c := (pf - p0) / inject_Z s) in *.
  pose proof (Qmult_le_compat_r _ _ _ Hts Hc). pose proof (natQ_S_mul c t).
  pose proof (Q.max_r p0 (pf - c * natQ (S t))). pose proof (Q.max_r p0 (pf - c * natQ t)). lra.
Qed.

(* from step s on the ramp is below p0 *)
Lemma prod_closed_floor p0 op s t : 0 <= p0 -> 100 <= op -> (1 <= s)%Z -> (s <= Z.of_nat t)%Z ->
  prod_closed p0 op s t == p0.
Proof.
  intros Hp Hop Hs Ht. destruct (prod_slope p0 op s Hp Hop Hs) as (_ & Hc & Hfull).
  assert (Hts : inject_Z s <= natQ t) by (unfold natQ; rewrite <- Zle_Qle; exact Ht).
  pose proof (Qmult_le_compat_r _ _ _ Hts Hc). apply Q.max_l. lra.
Qed.

(* depletion faster than 100 % per time step: the step count truncates to 0 and the code divides by it *)
Lemma prod_pressure_fast_is_error life k p0 op rate :
  (0 < life * k)%nat -> ~ op == 100 -> 100 * natQ k < rate ->
  prod_pressure life k p0 op rate = Err E_ZERODIV.
Proof.
  intros Hn Hop Hr. unfold prod_pressure. rewrite (depletion_steps_fast rate k Hr). unfold prod_pressure_with.
  destruct (Qeqb op 100) eqn:E; [apply Qeqb_true in E; contradiction|].
  destruct (life * k)%nat; [lia|reflexivity].
Qed.

Lemma inj_closed_step p0 rate k t : inj_closed p0 rate k (S t) == inj_closed p0 rate k t + rate / natQ k.
Proof. unfold inj_closed. pose proof (natQ_S_mul (rate / natQ k) t). lra. Qed.

Lemma inj_pressure_closed life k p0 rate :
  (0 < life * k)%nat ->
  exists l, inj_pressure life k p0 rate = Vals l /\ length l = (life * k)%nat /\
            forall t, (t < life * k)%nat -> nth t l 0 == inj_closed p0 rate k t.
Proof.
  intros Hn. unfold inj_pressure, inj_closed. destruct (Qeqb rate 0) eqn:E.
  - apply Qeqb_true in E. exists (repeat p0 (life * k)). split; [reflexivity|]. split; [apply repeat_length|].
    intros t Ht. rewrite nth_repeat_lt by exact Ht. rewrite E. unfold Qdiv. lra.
  - destruct (life * k)%nat as [|r]; [lia|].
    eexists. split; [reflexivity|]. split; [cbn [length]; now rewrite map_length, seq_length|].
    apply nth_cons_spec.
    + change (natQ 0) with 0. lra.
    + intros j Hj. rewrite nth_map_seq by lia. reflexivity.
Qed.

Lemma inj_stage_unbound life k p infl prod : inj_stage true false false life k p infl prod = Err E_UNBOUND.
Proof. reflexivity. Qed.

(* a checker that tests every adjacent pair establishes the tested relation at every step *)
Lemma adjacent_sound (chk : list Q -> bool) (R : Q -> Q -> Prop) :
  (forall x y r, chk (x :: y :: r) = true -> R x y /\ chk (y :: r) = true) ->
  forall l, chk l = true -> forall t, (S t < length l)%nat -> R (nth t l 0) (nth (S t) l 0).
Proof.
  intros Hstep. induction l as [|x [|y r] IH]; intros H t Ht; try (cbn in Ht; lia).
  destruct (Hstep x y r H) as [Hxy Hr]. destruct t as [|j]; [exact Hxy|].
  apply (IH Hr j), Nat.succ_lt_mono, Ht.
Qed.

Lemma nonincreasing_sound l : nonincreasing l = true ->
  forall t, (S t < length l)%nat -> nth (S t) l 0 <= nth t l 0.
Proof.
  apply (adjacent_sound nonincreasing (fun x y => y <= x)). intros x y r H.
  apply andb_true_iff in H. destruct H as [Hxy Hr]. apply Qleb_true in Hxy. split; assumption.
Qed.

Lemma increasing_sound l : increasing l = true ->
  forall t, (S t < length l)%nat -> nth t l 0 < nth (S t) l 0.
Proof.
  apply (adjacent_sound increasing Qlt). intros x y r H.
  apply andb_true_iff in H. destruct H as [Hxy Hr]. apply Qltb_true in Hxy. split; assumption.
Qed.

Lemma all_ge_sound b l : all_ge b l = true -> forall t, (t < length l)%nat -> b <= nth t l 0.
Proof.
  unfold all_ge. intros H t Ht. rewrite forallb_forall in H.
  apply Qleb_true. apply H. apply nth_In. exact Ht.
Qed.

Lemma check_prod_series_sound tol p0 op l : check_prod_series tol p0 op l = true ->
  (forall t, (S t < length l)%nat -> nth (S t) l 0 <= nth t l 0) /\
  (forall t, (t < length l)%nat -> p0 <= nth t l 0).
Proof.
  unfold check_prod_series. destruct l as [|x r].
  - intros _. split; intros t Ht; cbn in Ht; lia.
  - intros H. apply andb_true_iff in H. destruct H as [H Hge]. apply andb_true_iff in H. destruct H as [_ Hni].
    split; [apply nonincreasing_sound; exact Hni|apply all_ge_sound; exact Hge].
Qed.
