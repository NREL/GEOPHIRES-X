(* Proofs/PriceProofs.v - the loops of Model/Price.v year by year: price = min(start + escalation, end) + PTC term (C16) *)
From Coq Require Import QArith Qminmax Qpower List ZArith Bool Lia Lqa.
From Verif Require Import Base.Flat Proofs.FlatFacts Model.Price.
Import ListNotations.
Open Scope Q_scope.

Definition esc_term (esc : Z) (rate : Q) (i : nat) : Q :=
  if (esc <=? Z.of_nat i)%Z then inject_Z (Z.of_nat i - esc) * rate else 0.

(* PTC of year k as documented: ptc (grown by inflation if requested) inside the window, 0 outside *)
Definition ptc_term (dur : nat) (ptc : Q) (adj : bool) (infl : Q) (k : nat) : Q :=
  if Nat.ltb k dur then (if adj then ptc * (1 + infl) ^ Z.of_nat k else ptc) else 0.

(* the ending price caps the escalated price *)
Lemma cap_is_min p cap : (if Qltb cap p then cap else p) == Qmin p cap.
Proof. symmetry. destruct (Qltb_spec cap p); [apply Q.min_r | apply Q.min_l]; lra. Qed.

Lemma price_at_spec start endp esc rate i :
  price_at start endp esc rate i == Qmin (start + esc_term esc rate i) endp.
Proof.
  unfold price_at, esc_term. cbv zeta. rewrite cap_is_min.
  destruct (esc <=? Z.of_nat i)%Z; [reflexivity | now rewrite Qplus_0_r].
Qed.

Lemma price_at_uncapped start endp esc rate i :
  start + esc_term esc rate i <= endp ->
  price_at start endp esc rate i == start + esc_term esc rate i.
Proof. intros H. rewrite price_at_spec. apply Q.min_l. exact H. Qed.

(* no escalation up to and including the start year; from then on consecutive years differ by exactly [rate] *)
Lemma esc_term_before esc rate i : (Z.of_nat i <= esc)%Z -> esc_term esc rate i == 0.
Proof.
  intros H. unfold esc_term. destruct (Z.leb_spec esc (Z.of_nat i)); [|reflexivity].
  replace (Z.of_nat i - esc)%Z with 0%Z by lia. apply Qmult_0_l.
Qed.

Lemma esc_term_step esc rate i :
  (esc <= Z.of_nat i)%Z -> esc_term esc rate (S i) == esc_term esc rate i + rate.
Proof.
  intros H. unfold esc_term.
  destruct (Z.leb_spec esc (Z.of_nat i)); [|lia].
  destruct (Z.leb_spec esc (Z.of_nat (S i))); [|lia].
  replace (Z.of_nat (S i) - esc)%Z with ((Z.of_nat i - esc) + 1)%Z by lia.
  rewrite inject_Z_plus. change (inject_Z 1) with 1. ring.
Qed.

(* every year of the schedule: price_k = price_at (i+k) + ptc_k, for every lifetime *)
Lemma pricing_fill_nth start endp esc rate : forall life i ptc r,
  pricing_fill start endp esc rate i ptc life = Some r ->
  length r = life /\
  forall k, (k < life)%nat -> nth k r 0 == price_at start endp esc rate (i + k) + nth k ptc 0.
Proof.
  induction life as [|l IH]; intros i ptc r H; cbn [pricing_fill] in H.
  - injection H as <-. split; [reflexivity | intros k Hk; lia].
  - destruct ptc as [|a ptc']; [discriminate|].
    destruct (pricing_fill start endp esc rate (S i) ptc' l) as [r'|] eqn:E; [|discriminate].
    injection H as <-. destruct (IH _ _ _ E) as [Hl Hn]. split.
    + cbn [length]. now rewrite Hl.
    + intros [|k] Hk; cbn [nth].
      * now rewrite Nat.add_0_r.
      * rewrite Hn by lia. now rewrite Nat.add_succ_comm.
Qed.

(* PTCAddition[i] raises IndexError exactly when the PTC list is shorter than the lifetime *)
Lemma pricing_fill_defined_iff start endp esc rate : forall life i ptc,
  (exists r, pricing_fill start endp esc rate i ptc life = Some r) <-> (life <= length ptc)%nat.
Proof.
  induction life as [|l IH]; intros i ptc; cbn [pricing_fill].
  - split; [lia | eexists; reflexivity].
  - destruct ptc as [|a ptc']; cbn [length].
    + split; [intros [r H]; discriminate | lia].
    + (* defined iff the rest of the loop is *)
      rewrite <- Nat.succ_le_mono, <- (IH (S i) ptc').
      destruct (pricing_fill start endp esc rate (S i) ptc' l) as [r'|].
      * split; intros _; eexists; reflexivity.
      * split; intros [r H]; discriminate.
Qed.

Lemma pricing_fill_undefined start endp esc rate : forall life i ptc,
  (length ptc < life)%nat -> pricing_fill start endp esc rate i ptc life = None.
Proof.
  intros life i ptc H. destruct (pricing_fill start endp esc rate i ptc life) as [r|] eqn:E; [|reflexivity].
  assert (life <= length ptc)%nat by (apply (pricing_fill_defined_iff start endp esc rate life i); now exists r). lia.
Qed.

Lemma ptc_fill_length dur ptc infl adj : forall life year prev,
  length (ptc_fill dur year prev ptc infl adj life) = life.
Proof.
  induction life as [|l IH]; intros year prev; cbn [ptc_fill]. reflexivity.
  destruct (Nat.ltb year dur); cbn [length]; rewrite IH; reflexivity.
Qed.

Lemma ptc_term_inside dur ptc adj infl k : (k < dur)%nat ->
  ptc_term dur ptc adj infl k = if adj then ptc * (1 + infl) ^ Z.of_nat k else ptc.
Proof. intros H. unfold ptc_term. now destruct (Nat.ltb_spec k dur); [|lia]. Qed.
Lemma ptc_term_outside dur ptc adj infl k : (dur <= k)%nat -> ptc_term dur ptc adj infl k = 0.
Proof. intros H. unfold ptc_term. now destruct (Nat.ltb_spec k dur); [lia|]. Qed.

(* every year of the loop is the documented term; the loop invariant: on entering a year > 0 inside an inflation-adjusted
   window, [prev] is the documented term of the year before *)
Lemma ptc_fill_nth dur ptc infl adj : forall life year prev k, (k < life)%nat ->
  (adj = true -> (0 < year < dur)%nat -> prev == ptc * (1 + infl) ^ Z.of_nat (year - 1)) ->
  nth k (ptc_fill dur year prev ptc infl adj life) 0 == ptc_term dur ptc adj infl (year + k).
Proof.
  induction life as [|l IH]; intros year prev k Hk Hprev; [lia|]. cbn [ptc_fill].
  destruct (Nat.ltb_spec year dur) as [Hy|Hy].
  - (* inside the window: the value written is the documented term of this year *)
    set (v := if adj && negb (Nat.eqb year 0) then prev * (1 + infl) else ptc).
    assert (Hv : v == ptc_term dur ptc adj infl year).
    { rewrite ptc_term_inside by assumption. unfold v. destruct adj; [|reflexivity].
      destruct year as [|y]; cbn [andb negb Nat.eqb].
      - cbn. ring.
      - rewrite (Hprev eq_refl) by lia. replace (S y - 1)%nat with y by lia. rewrite Qpower_succ. ring. }
    destruct k as [|k]; cbn [nth].
    + now rewrite Nat.add_0_r.
    + rewrite <- Nat.add_succ_comm. apply IH; [lia|]. intros Ha Hd.
      rewrite Hv, ptc_term_inside, Ha by assumption. now replace (S year - 1)%nat with year by lia.
  - (* past the window: 0 from here on *)
    destruct k as [|k]; cbn [nth].
    + now rewrite ptc_term_outside by lia.
    + rewrite <- Nat.add_succ_comm. apply IH; [lia|]. intros _ Hd. lia.
Qed.

Lemma ptc_model_nth life dur ptc adj infl pl :
  ptc_model life dur ptc adj infl = Some pl ->
  (dur <= life)%nat /\ length pl = life /\
  forall k, (k < life)%nat -> nth k pl 0 == ptc_term dur ptc adj infl k.
Proof.
  unfold ptc_model. destruct (Nat.ltb_spec life dur) as [H|H]; [discriminate|].
  intros [= <-]. split; [exact H|]. split; [apply ptc_fill_length|].
  intros k Hk. apply (ptc_fill_nth dur ptc infl adj life 0 0 k Hk). lia.
Qed.

Lemma ptc_model_error life dur ptc adj infl :
  ptc_model life dur ptc adj infl = None <-> (life < dur)%nat.
Proof.
  unfold ptc_model. destruct (Nat.ltb_spec life dur); split; intros; try reflexivity; try discriminate; lia.
Qed.

(* the PTC addition that enters a product's schedule, year by year *)
Lemma ptc_addition_nth life (prov : bool) dur ptc adj infl pl :
  (if prov then ptc_model life dur ptc adj infl else Some (repeat 0 life)) = Some pl ->
  forall k, (k < life)%nat -> nth k pl 0 == (if prov then ptc_term dur ptc adj infl k else 0).
Proof.
  destruct prov; intros E k Hk; [now apply (ptc_model_nth _ _ _ _ _ _ E) | injection E as <-; now rewrite nth_repeat].
Qed.

Lemma pad_length cy l : length (pad_construction cy l) = (cy + length l)%nat.
Proof. unfold pad_construction. rewrite app_length, repeat_length. reflexivity. Qed.
