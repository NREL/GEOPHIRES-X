(* Proofs/ProcessProofs.v - lemmas about Model/Process.v (C08), for ALL histories (lists of operations of any
   length), all starting states, any simulation oracle [run], any [hash].  What one step does is said once
   ([client_get_cases], [cli_run_spec], [hip_get_spec], [step_state]); histories are reached by one induction
   ([trace_invariant]); refinement of a step comes down to the cache hits being right ([step_refines]), which each
   cache discipline - none, a key that determines the run, the path key - maintains by an invariant of its own.
   Before all that, the soundness of the session checker; at the end, the witness histories of the refutations. *)
From Coq Require Import List ZArith Bool Arith Lia.
From Verif Require Import Model.Process.
Import ListNotations.

Lemma dir_eqb_eq a b : dir_eqb a b = true -> a = b.
Proof. destruct a, b; simpl; try discriminate; auto; intros H; apply Nat.eqb_eq in H; now subst. Qed.

Lemma arg_eqb_eq a b : arg_eqb a b = true -> a = b.
Proof.
  destruct a, b; simpl; try discriminate; auto; intros H.
  - apply Nat.eqb_eq in H. now subst.
  - apply Z.eqb_eq in H. now subst.
  - apply Nat.eqb_eq in H. now subst.
Qed.

Lemma list_eqb_eq {A} (e : A -> A -> bool) :
  (forall x y, e x y = true -> x = y) -> forall a b, list_eqb e a b = true -> a = b.
Proof.
  intros He a. induction a as [|x a IH]; destruct b as [|y b]; simpl; try discriminate; auto.
  intros H. apply andb_true_iff in H as [H1 H2]. f_equal; auto.
Qed.

(* the session checker run on the implementation's observations: no code reported => every step passed the three
   per-step checks *)
Fixpoint steps_ok {K : Type} (g : cfg) (f : fs nat) (evs : list (event nat nat K)) (os : list obs) : Prop :=
  match evs, os with
  | e :: evs', b :: os' =>
      obs_matches e b = true /\ check_restore_step (eop e) b = true /\ check_refines_step g f (eop e) b = true
      /\ steps_ok g (files_step f (eop e)) evs' os'
  | [], [] => True
  | _, _ => False
  end.

Lemma session_codes_nil {K : Type} g : forall (evs : list (event nat nat K)) os i f,
  session_codes g i f evs os = [] -> steps_ok g f evs os.
Proof.
  induction evs as [|e evs IH]; destruct os as [|b os]; simpl; intros i f H; auto; try discriminate.
  destruct (obs_matches e b); [|discriminate].
  destruct (check_restore_step (eop e) b); [|discriminate].
  destruct (check_refines_step g f (eop e) b); [|discriminate].
  simpl in H. repeat split; auto. eapply IH; eauto.
Qed.

Section ProcessProofs.
  Variables C R : Type.
  Variable run : C -> option R.
  Variable hash : nat -> Z.
  Variable resolve : dir -> nat -> nat.
  Variable opendir : dir -> dir -> dir.
  Variable runh : nat -> C -> option R.
  Variable K : Type.
  Variable keq : K -> K -> bool.
  Variable keyof : nat -> option C -> K.

  Notation state := (state C R K).
  Notation event := (event C R K).
  Notation client_get := (client_get C R run hash resolve opendir K keq keyof).
  Notation cli_run := (cli_run C R run hash resolve K).
  Notation hip_get := (hip_get C R resolve opendir runh K).
  Notation step := (step C R run hash resolve opendir runh K keq keyof).
  Notation trace := (trace C R run hash resolve opendir runh K keq keyof).
  Notation final := (final C R run hash resolve opendir runh K keq keyof).
  Notation srcdir st := (opendir DSrc (cwd st)).
  Notation expected := (expected C R run).
  Notation expected_with := (expected_with C R).
  Notation key p st := (keyof p (fs_lookup (resolve (cwd st) p) (files st))).
  (* the event of operation [o] executed in state [st] *)
  Notation ev fixed st o := (mkEvent st o (fst (step fixed st o)) (snd (step fixed st o))).

  (* the words Props/C08.v speaks in, about single operations: which are requests through a client, which leave
     cwd and argv alone, what a request asks for (program, path as given), which file an operation writes *)
  Definition is_client_run (o : op C) : bool := match o with Get _ _ | HipGet _ _ => true | _ => false end.

  Definition only_runs_and_files (o : op C) : bool :=
    match o with Get _ _ | HipGet _ _ | Write _ _ | Delete _ | NewClient _ => true | _ => false end.

  Definition request (o : op C) : option ((C -> option R) * nat) :=
    match o with
    | Get _ p | Cli p => Some (run, p)
    | HipGet k p => Some (runh k, p)
    | _ => None
    end.

  Definition wpath (o : op C) : option nat :=
    match o with Write p _ | Delete p => Some p | _ => None end.

  (* The four ways a client call can go, as a relation between the call and its (state, outcome).  The file that is
     RUN is the one the path names where the program opens it ([srcdir]). *)
  Inductive get_result (fixed : bool) (st : state) (ci p : nat) : state * outcome R -> Prop :=
  | GetNoClient : nth_error (clients st) ci = None -> get_result fixed st ci p (st, NoSuchClient)
  | GetHit cl r : nth_error (clients st) ci = Some cl -> caching cl = true ->
      cache_lookup keq (key p st) (cache cl) = Some r -> get_result fixed st ci p (st, Returned r true)
  | GetRaise cl : nth_error (clients st) ci = Some cl -> expected (files st) (resolve (srcdir st) p) = None ->
      get_result fixed st ci p
        (if fixed then st else mkState DSrc [AEmpty; AIn p; AOut (hash p)] (files st) (clients st), Raised)
  | GetRun cl r : nth_error (clients st) ci = Some cl -> expected (files st) (resolve (srcdir st) p) = Some r ->
      get_result fixed st ci p
        (mkState (cwd st) (argv st) (files st)
           (replace_nth ci (if caching cl then mkClient true ((key p st, r) :: cache cl) else cl) (clients st)),
         Returned r false).

  Lemma client_get_cases fixed st ci p : get_result fixed st ci p (client_get fixed st ci p).
  Proof.
    unfold client_get. destruct (nth_error (clients st) ci) as [cl|] eqn:Hn; [|now constructor].
    destruct (if caching cl then cache_lookup keq (key p st) (cache cl) else None) as [r|] eqn:Hl.
    - apply (GetHit _ _ _ _ cl r Hn); destruct (caching cl); [reflexivity|discriminate|exact Hl|discriminate].
    - unfold Process.main_run, Process.prog_run. simpl. fold (expected (files st) (resolve (srcdir st) p)).
      destruct (expected (files st) (resolve (srcdir st) p)) as [r|] eqn:He.
      + replace (Process.set_clients _ _ _ _ _) with
          (mkState (cwd st) (argv st) (files st)
             (replace_nth ci (if caching cl then mkClient true ((key p st, r) :: cache cl) else cl) (clients st)))
          by (destruct st; reflexivity).
        exact (GetRun _ _ _ _ cl r Hn He).
      + replace (if fixed then _ else _) with
          (if fixed then st else mkState DSrc [AEmpty; AIn p; AOut (hash p)] (files st) (clients st))
          by (destruct st, fixed; reflexivity).
        exact (GetRaise _ _ _ _ cl Hn He).
  Qed.

  Lemma cli_run_spec st p :
    cli_run st p =
      (mkState (cwd st) [AUser 0; AIn p; AOut (hash p)] (files st) (clients st),
       match expected (files st) (resolve (cwd st) p) with Some r => Returned r false | None => Raised end).
  Proof. unfold Process.cli_run. destruct st; reflexivity. Qed.

  Lemma hip_get_spec st k p :
    hip_get st k p =
      (st, match expected_with (runh k) (files st) (resolve (opendir (DPkg k) (cwd st)) p) with Some r => Returned r false | None => Raised end).
  Proof. unfold Process.hip_get, Process.prog_run. simpl. destruct st; reflexivity. Qed.

  Lemma trace_cons fixed st o ops : trace fixed st (o :: ops) = ev fixed st o :: trace fixed (fst (step fixed st o)) ops.
  Proof. simpl. destruct (step fixed st o); reflexivity. Qed.

  (* the one induction over histories: a step that takes [I] to [I] and, where the operation is in [A] and the event in
     [H], makes an event in [P] *)
  Lemma trace_invariant fixed (I : state -> Prop) (A : op C -> Prop) (H P : event -> Prop) :
    (forall st o, I st -> A o -> H (ev fixed st o) -> P (ev fixed st o) /\ I (fst (step fixed st o))) ->
    forall ops st, I st -> (forall o, In o ops -> A o) -> Forall H (trace fixed st ops) -> Forall P (trace fixed st ops).
  Proof.
    intros Hstep. induction ops as [|o ops IH]; intros st Hi Ha Hh; [constructor|].
    rewrite trace_cons in *. inversion Hh as [|e l H1 H2]; subst.
    destruct (Hstep st o Hi (Ha o (or_introl eq_refl)) H1). constructor; [assumption|].
    apply IH; [assumption| |assumption]. intros o' Ho'. apply Ha. now right.
  Qed.

  Lemma trace_Forall fixed (P : event -> Prop) :
    (forall st o, P (ev fixed st o)) -> forall ops st, Forall P (trace fixed st ops).
  Proof.
    intros Hp ops st. apply (trace_invariant fixed (fun _ => True) (fun _ => True) (fun _ => True)); auto.
    apply Forall_forall. auto.
  Qed.

  Lemma replace_nth_length {A} n (x : A) l : length (replace_nth n x l) = length l.
  Proof. revert n. induction l as [|h t IH]; intros [|n]; simpl; auto. Qed.

  Lemma replace_nth_other {A} n (x : A) l j : j <> n -> nth_error (replace_nth n x l) j = nth_error l j.
  Proof.
    revert n j. induction l as [|h t IH]; intros [|n] [|j] H; simpl; auto; try congruence.
  Qed.

  Lemma replace_nth_In {A} n (x y : A) l : In y (replace_nth n x l) -> y = x \/ In y l.
  Proof.
    revert n. induction l as [|h t IH]; intros [|n]; simpl; auto.
    - intros [E|H]; auto.
    - intros [E|H]; auto. destruct (IH _ H); auto.
  Qed.

  Lemma replace_nth_same {A} n (x : A) l : nth_error l n = Some x -> replace_nth n x l = l.
  Proof.
    revert n. induction l as [|h t IH]; intros [|n]; simpl; try discriminate.
    - now intros [= ->].
    - intros H. now rewrite IH.
  Qed.

  Lemma replace_nth_last {A} (l : list A) x y : replace_nth (length l) x (l ++ [y]) = l ++ [x].
  Proof. induction l as [|h t IH]; simpl; [reflexivity|]. now rewrite IH. Qed.

  Theorem get_frame st ci p :
    let st' := fst (client_get true st ci p) in
    cwd st' = cwd st /\ argv st' = argv st /\ files st' = files st
    /\ length (clients st') = length (clients st)
    /\ forall j, j <> ci -> nth_error (clients st') j = nth_error (clients st) j.
  Proof.
    simpl.
    destruct (client_get_cases true st ci p) as [_|cl r _ _ _|cl _ _|cl r _ _]; simpl; repeat split; auto.
    - apply replace_nth_length.
    - intros j Hj. now apply replace_nth_other.
  Qed.

  (* what a step does to the files and to the clients: at most one client gains one cache entry, the run of
     the file the program opened *)
  Lemma step_state fixed st o :
    files (fst (step fixed st o))
    = match o with Write p c => (p, Some c) :: files st | Delete p => (p, None) :: files st | _ => files st end
    /\ (clients (fst (step fixed st o)) = clients st
        \/ (exists b, o = NewClient b /\ clients (fst (step fixed st o)) = clients st ++ [mkClient b []])
        \/ (exists ci p cl r, o = Get ci p /\ nth_error (clients st) ci = Some cl /\ caching cl = true
              /\ expected (files st) (resolve (srcdir st) p) = Some r
              /\ clients (fst (step fixed st o))
                 = replace_nth ci (mkClient true ((key p st, r) :: cache cl)) (clients st))).
  Proof.
    destruct o as [ci p|p c|p|d|a|b|p|k p]; cbn [Process.step]; try (split; [|left]; reflexivity).
    - destruct (client_get_cases fixed st ci p) as [_|cl r _ _ _|cl _ _|cl r Hn He];
        try (split; [|left]; destruct fixed; reflexivity).
      split; [reflexivity|]. simpl. destruct (caching cl) eqn:Hc.
      + right. right. exists ci, p, cl, r. auto.
      + left. now apply replace_nth_same.
    - split; [reflexivity|]. right. left. exists b. auto.
  Qed.

  Definition restored (e : event) : Prop :=
    cwd (after e) = cwd (before e) /\ argv (after e) = argv (before e).

  (* every request through a GEOPHIRES or a HIP-RA client - hit, success or failure - and every operation on
     files or clients *)
  Lemma step_restore st o : only_runs_and_files o = true -> restored (ev true st o).
  Proof.
    unfold restored. destruct o as [ci p|p c|p|d|a|b|p|k p]; try discriminate; intros _; cbn [Process.step before after].
    - destruct (get_frame st ci p) as (E1 & E2 & _). auto.
    - simpl. auto.
    - simpl. auto.
    - simpl. auto.
    - rewrite hip_get_spec. auto.
  Qed.

  (* the pinned client restores exactly when it does not raise *)
  Lemma step_restore_pinned st o : is_get o = true -> snd (step false st o) <> Raised -> restored (ev false st o).
  Proof.
    destruct o as [ci p| | | | | | |]; try discriminate. intros _. unfold restored. cbn [Process.step before after].
    destruct (client_get_cases false st ci p) as [_|cl r _ _ _|cl _ _|cl r _ _]; simpl; auto.
    intros H. now elim H.
  Qed.

  (* the HIP-RA clients (restore in a `finally` in the pinned tree already): nothing at all changes *)
  Lemma step_hip_frame fixed st o k p : o = HipGet k p -> fst (step fixed st o) = st.
  Proof. intros ->. cbn [Process.step]. now rewrite hip_get_spec. Qed.

  (* the command line entry point gives the working directory back on both paths; argv is the list the operation
     started the script with ([cli_run] assigns it), not compared with what it was before *)
  Lemma step_cli_restore fixed st o p : o = Cli p ->
    cwd (fst (step fixed st o)) = cwd st /\ argv (fst (step fixed st o)) = [AUser 0; AIn p; AOut (hash p)].
  Proof. intros ->. cbn [Process.step]. rewrite cli_run_spec. auto. Qed.

  Definition outs (fixed : bool) (st : state) (ops : list (op C)) : list (outcome R) := map (@eout C R K) (trace fixed st ops).

  Lemma final_cons fixed st o ops : final fixed st (o :: ops) = final fixed (fst (step fixed st o)) ops.
  Proof. reflexivity. Qed.

  Lemma final_app fixed : forall a st b, final fixed st (a ++ b) = final fixed (final fixed st a) b.
  Proof. unfold Process.final. intros a st b. apply fold_left_app. Qed.

  Lemma outs_cons fixed st o ops : outs fixed st (o :: ops) = snd (step fixed st o) :: outs fixed (fst (step fixed st o)) ops.
  Proof. unfold outs. rewrite trace_cons. reflexivity. Qed.

  Lemma outs_app fixed : forall a st b, outs fixed st (a ++ b) = outs fixed st a ++ outs fixed (final fixed st a) b.
  Proof.
    induction a as [|o a IH]; intros st b; [reflexivity|].
    rewrite <- app_comm_cons, !outs_cons, final_cons, IH. reflexivity.
  Qed.

  Definition mc_outcome (c : C) : outcome R := match run c with Some r => Returned r false | None => Raised end.

  (* one iteration: the embedded client is new, so the request always RUNS the iteration's own content *)
  Lemma mc_iter_spec st p c :
    (forall d, resolve d p = p) ->
    outs true st (mc_iter (length (clients st)) p c) = [Done; Done; mc_outcome c; Done]
    /\ exists cl, final true st (mc_iter (length (clients st)) p c)
                  = mkState (cwd st) (argv st) ((p, None) :: (p, Some c) :: files st) (clients st ++ [cl]).
  Proof.
    intros Ha. destruct st as [d a f cs]. unfold mc_iter.
    rewrite !outs_cons, !final_cons. cbn [Process.step fst snd].
    unfold Process.set_files, Process.set_clients. cbn [cwd argv files clients].
    set (st2 := mkState d a ((p, Some c) :: f) (cs ++ [mkClient true []])).
    assert (Hn : nth_error (clients st2) (length cs) = Some (mkClient true [])).
    { cbn. now rewrite nth_error_app2, Nat.sub_diag by auto. }
    assert (He : expected (files st2) (resolve (srcdir st2) p) = run c).
    { unfold Process.expected, Process.expected_with. cbn. now rewrite Ha, Nat.eqb_refl. }
    assert (E : exists cl, client_get true st2 (length cs) p = (mkState d a ((p, Some c) :: f) (cs ++ [cl]), mc_outcome c)).
    { unfold mc_outcome. rewrite <- He.
      destruct (client_get_cases true st2 (length cs) p) as [Hx|cl r Hx _ Hl|cl _ Hr|cl r Hx Hr].
      - rewrite Hn in Hx. discriminate Hx.
      - rewrite Hn in Hx. injection Hx as <-. discriminate Hl.
      - rewrite Hr. now exists (mkClient true []).
      - rewrite Hn in Hx. injection Hx as <-. rewrite Hr. eexists. cbn. now rewrite replace_nth_last. }
    destruct E as [cl ->]. split; [reflexivity|now exists cl].
  Qed.

  (* a whole work package, from any state (other clients with anything in their caches, any files): cwd and argv
     are unchanged at the end, every embedded request gives the run of the iteration content (or fails when that
     content does not run), the clients that existed before are untouched and the new ones come after them *)
  Theorem mc_package_spec : forall ps st c,
    (forall p, In p ps -> forall d, resolve d p = p) ->
    let st' := final true st (mc_package (length (clients st)) ps c) in
    cwd st' = cwd st /\ argv st' = argv st
    /\ (exists new, clients st' = clients st ++ new)
    /\ filter (fun o => match o with Done => false | _ => true end)
              (outs true st (mc_package (length (clients st)) ps c)) = repeat (mc_outcome c) (length ps).
  Proof.
    induction ps as [|p ps IH]; intros st c Ha.
    - simpl. repeat split; auto. exists []. symmetry. apply app_nil_r.
    - cbn [mc_package length repeat]. cbv zeta.
      destruct (mc_iter_spec st p c (Ha p (or_introl eq_refl))) as [Ho [cl Hf]].
      rewrite final_app, outs_app, Hf, Ho.
      set (st1 := mkState (cwd st) (argv st) ((p, None) :: (p, Some c) :: files st) (clients st ++ [cl])).
      assert (Hl : S (length (clients st)) = length (clients st1)).
      { subst st1. simpl. rewrite app_length. simpl. lia. }
      rewrite Hl. destruct (IH st1 c (fun q Hq => Ha q (or_intror Hq))) as (E1 & E2 & [new E3] & E4).
      rewrite E1, E2, E3. repeat split; auto.
      + exists (cl :: new). subst st1. simpl. now rewrite <- app_assoc.
      + rewrite filter_app, E4. unfold mc_outcome. simpl. destruct (run c); reflexivity.
  Qed.

  (* REFINEMENT: a returned result is the run of the content that the file the request names AS THE CALLER SEES IT
     (resolved against the caller's working directory at request time) has at request time *)
  Definition refines_event (e : event) : Prop :=
    forall orc p r h, request (eop e) = Some (orc, p) -> eout e = Returned r h ->
    expected_with orc (files (before e)) (resolve (cwd (before e)) p) = Some r.

  (* the request path names the same file for the caller and for the program (which chdirs to its own directory
     before opening it) *)
  Definition resolves_same (e : event) : Prop :=
    (forall ci p, eop e = Get ci p -> resolve (cwd (before e)) p = resolve (opendir DSrc (cwd (before e))) p)
    /\ (forall k p, eop e = HipGet k p -> resolve (cwd (before e)) p = resolve (opendir (DPkg k) (cwd (before e))) p).

  (* it speaks of the request only, not of what the step does: true of all events as soon as a path names the same
     file in the caller's directory and where a program opens it - every path absolute, or the programs opening the
     request path against the caller's directory, whatever the paths *)
  Lemma resolves_same_all : (forall pkg d p, resolve d p = resolve (opendir pkg d) p) -> forall l, Forall resolves_same l.
  Proof. intros Hr l. apply Forall_forall. intros e _. split; intros; apply Hr. Qed.

  (* whatever a cache serves to the request [o] in [st] is the run of the file the request names now *)
  Definition hits_ok (st : state) (o : op C) : Prop :=
    forall ci p cl r, o = Get ci p -> nth_error (clients st) ci = Some cl -> caching cl = true ->
    cache_lookup keq (key p st) (cache cl) = Some r -> expected (files st) (resolve (cwd st) p) = Some r.

  (* A request that is not served from a cache returns the run of the file the program opens.  So refinement comes
     down to the hits; each cache discipline below keeps them right by an invariant of its own. *)
  Lemma step_refines fixed st o : hits_ok st o -> resolves_same (ev fixed st o) -> refines_event (ev fixed st o).
  Proof.
    assert (Hout : forall (x : option R) r h,
               match x with Some r => Returned r false | None => Raised end = Returned r h -> x = Some r).
    { intros [x|] r h E; now inversion E. }
    intros Hh [Hrg Hrh] orc q r h Hq Ho. cbn [eop eout before] in *.
    destruct o as [ci p|p c|p|d|a|b|p|k p]; try discriminate Hq; inversion Hq; subst orc q; cbn [Process.step] in Ho.
    - revert Ho. destruct (client_get_cases fixed st ci p) as [_|cl r' Hn Hc Hl|cl _ _|cl r' _ He];
        intros Ho; try discriminate Ho; inversion Ho; subst r'.
      + exact (Hh ci p cl r eq_refl Hn Hc Hl).
      + rewrite (Hrg ci p eq_refl). exact He.
    - rewrite cli_run_spec in Ho. exact (Hout _ r h Ho).
    - rewrite hip_get_spec in Ho. rewrite (Hrh k p eq_refl). exact (Hout _ r h Ho).
  Qed.

  (* hence the result is a function of the content: two events that refine, addressed to the same program and naming
     files of the same content, return the same result - in whatever histories they occur *)
  Lemma refines_function_of_content e1 e2 orc p1 p2 r1 r2 h1 h2 :
    refines_event e1 -> refines_event e2 ->
    request (eop e1) = Some (orc, p1) -> request (eop e2) = Some (orc, p2) ->
    eout e1 = Returned r1 h1 -> eout e2 = Returned r2 h2 ->
    fs_lookup (resolve (cwd (before e1)) p1) (files (before e1))
      = fs_lookup (resolve (cwd (before e2)) p2) (files (before e2)) ->
    r1 = r2.
  Proof.
    intros T1 T2 Q1 Q2 O1 O2 Hf. specialize (T1 _ _ _ _ Q1 O1). specialize (T2 _ _ _ _ Q2 O2).
    unfold Process.expected_with in T1, T2. rewrite Hf in T1. congruence.
  Qed.

  (* with caching off there is nothing to go stale: no hypothesis on writes, none on the key *)
  Definition nocache (st : state) : Prop := forall cl, In cl (clients st) -> caching cl = false.

  Theorem trace_refines_nocache fixed : forall ops st,
    nocache st -> (forall b, In (NewClient b) ops -> b = false) ->
    Forall resolves_same (trace fixed st ops) ->
    Forall refines_event (trace fixed st ops).
  Proof.
    intros ops st Hnc Hb.
    apply (trace_invariant fixed nocache (fun o => forall b, o = NewClient b -> b = false)); [|exact Hnc|intros o Ho b ->; auto].
    clear. intros st o Hnc Hb Hrs. split.
    - apply step_refines; [|exact Hrs]. intros ci p cl r _ Hn Hc. rewrite (Hnc cl (nth_error_In _ _ Hn)) in Hc. discriminate.
    - intros cl. destruct (step_state fixed st o) as [_ [->|[(b & E & ->)|(ci & p & cl0 & r & _ & Hn & Hc & _)]]]; [auto| |].
      + intros Hin. apply in_app_or in Hin as [Hin|[<-|[]]]; [auto|exact (Hb b E)].
      + rewrite (Hnc cl0 (nth_error_In _ _ Hn)) in Hc. discriminate.
  Qed.

  (* a cache whose key determines the run is sound, for every history, files rewritten at will *)
  Definition run_opt (c : option C) : option R := match c with Some x => run x | None => None end.

  Definition key_sound : Prop :=
    forall p c p' c', keq (keyof p c) (keyof p' c') = true -> run_opt c = run_opt c'.

  (* invariant: every cached entry is the run of the content its key was made from *)
  Definition entries_ok (st : state) : Prop :=
    forall cl, In cl (clients st) -> caching cl = true ->
    forall k r, In (k, r) (cache cl) -> exists p c, k = keyof p c /\ run_opt c = Some r.

  Lemma cache_lookup_some k (l : list (K * R)) r :
    cache_lookup keq k l = Some r -> exists k', In (k', r) l /\ keq k k' = true.
  Proof.
    induction l as [|[k' r'] t IH]; simpl; [discriminate|].
    destruct (keq k k') eqn:E.
    - intros H. inversion H; subst. exists k'. auto.
    - intros H. destruct (IH H) as (k2 & Hi & Hk). exists k2. auto.
  Qed.

  Lemma init_entries_ok d a f : entries_ok (init d a f).
  Proof. intros cl []. Qed.

  Theorem trace_refines_sound_key fixed : key_sound -> forall ops st,
    entries_ok st -> Forall resolves_same (trace fixed st ops) -> Forall refines_event (trace fixed st ops).
  Proof.
    intros Hks ops st Hok. apply (trace_invariant fixed entries_ok (fun _ => True)); [|exact Hok|auto].
    clear ops st Hok. intros st o Hok _ Hrs. split.
    - apply step_refines; [|exact Hrs]. intros ci p cl r _ Hn Hc Hl.
      destruct (cache_lookup_some _ _ _ Hl) as (k' & Hi & Hk).
      destruct (Hok cl (nth_error_In _ _ Hn) Hc k' r Hi) as (p' & c' & -> & Hr).
      change (run_opt (fs_lookup (resolve (cwd st) p) (files st)) = Some r).
      rewrite (Hks _ _ _ _ Hk). exact Hr.
    - intros cl. destruct (step_state fixed st o) as [_ [->|[(b & _ & ->)|(ci & p & cl0 & r & E & Hn & Hc & He & ->)]]];
        [exact (Hok cl)| |]; intros Hin Hc' k' r' Hi.
      + apply in_app_or in Hin as [Hin|[<-|[]]]; [exact (Hok cl Hin Hc' k' r' Hi)|destruct Hi].
      + apply replace_nth_In in Hin as [->|Hin]; [|exact (Hok cl Hin Hc' k' r' Hi)].
        destruct Hi as [[= <- <-]|Hi]; [|exact (Hok cl0 (nth_error_In _ _ Hn) Hc k' r' Hi)].
        exists p, (fs_lookup (resolve (cwd st) p) (files st)). split; [reflexivity|].
        pose proof (proj1 Hrs ci p E) as Hrg. simpl in Hrg. rewrite Hrg. exact He.
  Qed.
End ProcessProofs.

(* the repaired cache key (path hash AND content) is sound whenever content equality is *)
Lemma content_key_sound C R (run : C -> option R) hash (ceq : C -> C -> bool) :
  (forall a b, ceq a b = true -> a = b) ->
  key_sound C R run (Z * option C) (content_keq ceq) (content_key hash).
Proof.
  intros Hc p c p' c' H. unfold content_keq, content_key in H. simpl in H.
  apply andb_true_iff in H as [_ H]. destruct c as [x|], c' as [y|]; try discriminate; auto.
  now rewrite (Hc x y H).
Qed.

(* the path-keyed cache of the code under test (request paths opened in the caller's directory) *)
Section PathKeyed.
  Variables C R : Type.
  Variable run : C -> option R.
  Variable hash : nat -> Z.
  Variable resolve : dir -> nat -> nat.
  Variable runh : nat -> C -> option R.

  Notation state := (state C R Z).
  Notation event := (event C R Z).
  Notation step := (step C R run hash resolve caller_opendir runh Z Z.eqb (path_key hash)).
  Notation trace := (trace C R run hash resolve caller_opendir runh Z Z.eqb (path_key hash)).
  Notation expected := (expected C R run).
  Notation refines_event := (refines_event C R run resolve runh Z).

  (* no file is written or deleted while a caching client holds a result under the key of a path that names it *)
  Definition write_safe (e : event) : Prop :=
    forall f, wpath C (eop e) = Some f -> forall p, resolve DSrc p = f ->
    forall cl, In cl (clients (before e)) -> caching cl = true -> cache_lookup Z.eqb (hash p) (cache cl) = None.

  (* invariant: every cached entry is the run of the current content of a file with that key *)
  Definition fresh (ps : list nat) (st : state) : Prop :=
    forall cl, In cl (clients st) -> caching cl = true ->
    forall k r, cache_lookup Z.eqb k (cache cl) = Some r ->
    exists p, In p ps /\ hash p = k /\ expected (files st) (resolve DSrc p) = Some r.

  Definition inj_on (ps : list nat) : Prop :=
    forall p q, In p ps -> In q ps -> hash p = hash q -> p = q.

  Lemma expected_write f p c q : q <> p -> expected ((p, c) :: f) q = expected f q.
  Proof.
    intros H. unfold Process.expected, Process.expected_with. simpl.
    destruct (Nat.eqb_spec q p); [contradiction|reflexivity].
  Qed.

  (* the requested paths name the same file from every directory (true of absolute paths): the cache key is the
     path AS GIVEN, so a relative name cached in one directory would be served in another *)
  Definition cwd_independent (ps : list nat) : Prop := forall p, In p ps -> forall d, resolve d p = resolve DSrc p.

  Lemma init_fresh ps d a f : fresh ps (init d a f).
  Proof. intros cl []. Qed.

  (* a file may be written or deleted while no caching client holds a result under the key of a path that names it *)
  Lemma fresh_write ps st q c :
    fresh ps st ->
    (forall p, resolve DSrc p = q ->
     forall cl, In cl (clients st) -> caching cl = true -> cache_lookup Z.eqb (hash p) (cache cl) = None) ->
    fresh ps (Process.set_files C R Z st ((q, c) :: files st)).
  Proof.
    intros Hfr Hws cl Hcl Hc k r Hl. destruct (Hfr cl Hcl Hc k r Hl) as (p & Hp & Hh & Hex).
    exists p. split; [exact Hp|]. split; [exact Hh|].
    cbn. rewrite expected_write; [exact Hex|].
    intros Eq. rewrite <- Hh, (Hws p Eq cl Hcl Hc) in Hl. discriminate Hl.
  Qed.

  Theorem trace_refines_path_key ps fixed : inj_on ps -> cwd_independent ps -> forall ops st,
    fresh ps st -> (forall ci p, In (Get ci p) ops -> In p ps) ->
    Forall write_safe (trace fixed st ops) ->
    Forall refines_event (trace fixed st ops).
  Proof.
    intros Hinj Hci ops st Hfr Hin.
    apply (trace_invariant C R run hash resolve caller_opendir runh Z Z.eqb (path_key hash) fixed (fresh ps)
             (fun o => forall ci p, o = Get ci p -> In p ps)); [|exact Hfr|intros o Ho ci p ->; eauto].
    clear ops st Hfr Hin. intros st o Hfr Hin Hws. split.
    - apply step_refines; [|split; reflexivity]. intros ci p cl r E Hn Hc Hl.
      destruct (Hfr cl (nth_error_In _ _ Hn) Hc _ _ Hl) as (p' & Hp' & Hh & Hex).
      rewrite (Hci p (Hin ci p E)), <- (Hinj p' p Hp' (Hin ci p E) Hh). exact Hex.
    - assert (Hw : forall q c, wpath C o = Some q ->
                      fresh ps (Process.set_files C R Z st ((q, c) :: files st))).
      { intros q c Eq. apply fresh_write; [exact Hfr|exact (Hws q Eq)]. }
      intros cl. destruct (step_state C R run hash resolve caller_opendir runh Z Z.eqb (path_key hash) fixed st o)
        as [Ef [Ec|[(b & -> & Ec)|(ci & p & cl0 & r & -> & Hn & Hc & He & Ec)]]]; rewrite Ef, Ec; intros Hcl Hc' k r' Hl.
      + (* the clients are as they were *)
        destruct o as [| q c | q | | | | |]; try exact (Hfr cl Hcl Hc' k r' Hl).
        * exact (Hw q (Some c) eq_refl cl Hcl Hc' k r' Hl).
        * exact (Hw q None eq_refl cl Hcl Hc' k r' Hl).
      + (* a new client: its cache is empty *)
        apply in_app_or in Hcl as [Hcl|[<-|[]]]; [exact (Hfr cl Hcl Hc' k r' Hl)|discriminate Hl].
      + (* client [ci] has run the file of [p] and keeps the result under [hash p] *)
        apply replace_nth_In in Hcl as [->|Hcl]; [|exact (Hfr cl Hcl Hc' k r' Hl)].
        simpl in Hl. unfold path_key in Hl. destruct (Z.eqb_spec k (hash p)) as [->|_].
        * inversion Hl; subst r'. exists p. split; [exact (Hin ci p eq_refl)|]. split; [reflexivity|].
          rewrite <- (Hci p (Hin ci p eq_refl) (cwd st)). exact He.
        * exact (Hfr cl0 (nth_error_In _ _ Hn) Hc k r' Hl).
  Qed.

  Definition safe_history (fixed : bool) (ps : list nat) (st : state) (ops : list (op C)) : Prop :=
    inj_on ps /\ cwd_independent ps /\ fresh ps st /\ (forall ci p, In (Get ci p) ops -> In p ps)
    /\ Forall write_safe (trace fixed st ops).

  Lemma safe_history_refines fixed ps st ops e :
    safe_history fixed ps st ops -> In e (trace fixed st ops) -> refines_event e.
  Proof. intros (I & S & F & G & W). apply Forall_forall. now apply (trace_refines_path_key ps). Qed.
End PathKeyed.

(* Witnesses: what the faithful model of the PINNED client / of the path-keyed cache does.
   Each names the offending event outright: left to unification, the event would be a term in which every
   state repeats the computation of its predecessors. *)

(* [Get of a missing file] on the pinned client: the caller is left in the source directory with argv rewritten *)
Definition witness_fail : list (op nat) := [NewClient true; Get 0 7].

Lemma pinned_fail_event :
  nth_error (ptrace (plain_cfg [0]) false (DUser 0) [AUser 0; AUser 1] witness_fail) 1
  = Some (mkEvent (mkState (DUser 0) [AUser 0; AUser 1] [] [mkClient true []]) (Get 0 7)
                  (mkState DSrc [AEmpty; AIn 7; AOut 7%Z] [] [mkClient true []]) Raised).
Proof. reflexivity. Qed.

(* the same history on the current client restores *)
Lemma restore_fixed_witness :
  forallb (fun e => negb (is_get (eop e)) || (dir_eqb (cwd (after e)) (cwd (before e))
                                              && list_eqb arg_eqb (argv (after e)) (argv (before e))))
          (ptrace (plain_cfg [0]) true (DUser 0) [AUser 0; AUser 1] witness_fail) = true.
Proof. vm_compute. reflexivity. Qed.

(* a request served from the cache, in state [st] *)
Definition hit_event {K} (st : state nat nat K) (p r : nat) : event nat nat K := mkEvent st (Get 0 p) st (Returned r true).

(* [write c0; get; write c1; get] on one caching client: the second result is the run of c0, not of c1 *)
Lemma stale_hit fixed :
  nth_error (ptrace (plain_cfg [0; 1]) fixed (DUser 0) [] [NewClient true; Write 0 0; Get 0 0; Write 0 1; Get 0 0]) 4
  = Some (hit_event (mkState (DUser 0) [] [(0, Some 1); (0, Some 0)] [mkClient true [(0%Z, 0)]]) 0 0).
Proof. destruct fixed; reflexivity. Qed.

(* a hash collision between two requested paths has the same effect (why [inj_on] is a hypothesis) *)
Lemma cache_collision_witness :
  exists e p r h, In e (trace nat nat (crun [0; 1]) (fun _ => 0%Z) (cresolve []) caller_opendir (crunh []) Z Z.eqb (path_key (fun _ => 0%Z))
                          true (init (DUser 0) [] [])
                          [NewClient true; Write 0 0; Write 1 1; Get 0 0; Get 0 1])
            /\ eop e = Get 0 p /\ eout e = Returned r h
            /\ expected nat nat (crun [0; 1]) (files (before e)) p = Some 1 /\ r = 0.
Proof.
  exists (hit_event (mkState (DUser 0) [] [(1, Some 1); (0, Some 0)] [mkClient true [(0%Z, 0)]]) 1 0), 1, 0, true.
  split; [apply (nth_error_In _ 4); reflexivity|repeat split].
Qed.

(* RELATIVE REQUEST PATH: the caller sits in directory 0 where the name 100 is file 60 (content 0); the program
   chdirs to its own directory, where the same name is file 90 (content 1): with caching OFF the client returns the
   run of content 1 although the request, as the caller (and GeophiresInputParameters.as_text) sees it, is content 0 *)
Definition rel_cfg : cfg :=
  mkCfg [0; 1] [] [(DUser 0, 100, 60); (DSrc, 100, 90)] [(90, Some 1)].
Definition witness_rel : list (op nat) := [NewClient false; Write 60 0; Get 0 100].

Lemma rel_pinned_event fixed :
  nth_error (ptrace_with pinned_opendir rel_cfg fixed (DUser 0) [] witness_rel) 2
  = let st := mkState (DUser 0) [] [(60, Some 0); (90, Some 1)] [mkClient false []] in
    Some (mkEvent st (Get 0 100) st (Returned 1 false)).
Proof. destruct fixed; reflexivity. Qed.

(* the current clients (path opened in the caller's directory) give the caller's content on that history *)
Lemma relative_request_current :
  map (@eout nat nat Z) (ptrace rel_cfg true (DUser 0) [] witness_rel) = [Done; Done; Returned 0 false].
Proof. vm_compute. reflexivity. Qed.

(* ... but the cache key is still the path AS GIVEN: the same relative name requested from two directories through one
   caching client is served from the cache in the second directory (why [cwd_independent] is a hypothesis) *)
Definition rel2_cfg : cfg := mkCfg [0; 1] [] [(DUser 0, 100, 60); (DUser 1, 100, 61)] [].

Lemma rel_shared_hit fixed :
  nth_error (ptrace rel2_cfg fixed (DUser 0) []
               [NewClient true; Write 60 0; Write 61 1; Get 0 100; Chdir (DUser 1); Get 0 100]) 5
  = Some (hit_event (mkState (DUser 1) [] [(61, Some 1); (60, Some 0)] [mkClient true [(100%Z, 0)]]) 100 0).
Proof. destruct fixed; reflexivity. Qed.
