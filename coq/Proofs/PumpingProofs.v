(* Proofs/PumpingProofs.v - lemmas about Model/Pumping.v.
   Non-negativity is the clamp ([clamp0_nonneg]) carried through the series by [zipQ_all]; monotonicity in the
   pressure drop is [clamp0_mono] after the non-negative factors. *)
From Coq Require Import QArith Qabs List ZArith Bool Lia Lqa.
From Verif Require Import Base.Flat Proofs.FlatFacts Model.Pumping.
Import ListNotations.
Open Scope Q_scope.

Lemma clamp0_nonneg x : 0 <= clamp0 x.
Proof. unfold clamp0. destruct (Qltb_spec x 0); lra. Qed.

Lemma clamp0_id x : 0 <= x -> clamp0 x = x.
Proof. intros H. unfold clamp0. destruct (Qltb_spec x 0); [lra|reflexivity]. Qed.

Lemma clamp0_neg x : x < 0 -> clamp0 x = 0.
Proof. intros H. unfold clamp0. destruct (Qltb_spec x 0); [reflexivity|lra]. Qed.

Lemma clamp0_mono x y : x <= y -> clamp0 x <= clamp0 y.
Proof. intros H. unfold clamp0. destruct (Qltb_spec x 0), (Qltb_spec y 0); lra. Qed.

Lemma zipQ_spec f : forall a b l, zipQ f a b = Some l ->
  length l = length a /\ length l = length b /\
  forall i, (i < length l)%nat -> nth i l 0 = f (nth i a 0) (nth i b 0).
Proof.
  induction a as [|x a IH]; intros b l H; destruct b as [|y b]; cbn [zipQ] in H; try discriminate.
  - injection H as <-. repeat split. intros i Hi. inversion Hi.
  - destruct (zipQ f a b) as [r|] eqn:E; [|discriminate]. injection H as <-.
    destruct (IH b r E) as (La & Lb & Hn).
    split; [exact (f_equal S La)|]. split; [exact (f_equal S Lb)|].
    intros [|j] Hi; [reflexivity|]. apply Hn, Nat.succ_lt_mono, Hi.
Qed.

Lemma zipQ_defined f : forall a b, length a = length b -> exists l, zipQ f a b = Some l.
Proof.
  induction a as [|x a IH]; intros b H; destruct b as [|y b]; cbn in H; try discriminate.
  - exists []. reflexivity.
  - destruct (IH b) as [r E]; [lia|]. exists (f x y :: r). cbn [zipQ]. now rewrite E.
Qed.

Lemma zipQ_mismatch f : forall a b, length a <> length b -> zipQ f a b = None.
Proof.
  induction a as [|x a IH]; intros b H; destruct b as [|y b]; cbn in H |- *; try reflexivity; try lia.
  rewrite IH by lia. reflexivity.
Qed.

Lemma zipQ_all (P : Q -> Prop) f : (forall x y, P (f x y)) ->
  forall a b l, zipQ f a b = Some l -> forall i, (i < length l)%nat -> P (nth i l 0).
Proof.
  intros Hf a b l H i Hi. destruct (zipQ_spec f a b l H) as (_ & _ & Hn). rewrite Hn by exact Hi. apply Hf.
Qed.

Lemma imp_power_nonneg ninj q wl eff dp rho : 0 <= imp_power ninj q wl eff dp rho.
Proof. apply clamp0_nonneg. Qed.
Lemma prod_power_nonneg pumping nprod q eff dp rho : 0 <= prod_power pumping nprod q eff dp rho.
Proof. unfold prod_power. destruct pumping; [apply clamp0_nonneg|lra]. Qed.
Lemma inj_power_nonneg nprod q wl eff dp rho : 0 <= inj_power nprod q wl eff dp rho.
Proof. apply clamp0_nonneg. Qed.

Lemma total_power_spec pumping inj prod t :
  total_power pumping inj prod = Some t ->
  length t = length inj /\ (pumping = true -> length t = length prod) /\
  forall i, (i < length t)%nat ->
    nth i t 0 = clamp0 (if pumping then nth i inj 0 + nth i prod 0 else nth i inj 0).
Proof.
  unfold total_power. destruct pumping; intros H.
  - destruct (zipQ_spec _ _ _ _ H) as (La & Lb & Hn). split; [exact La|]. split; [intros _; exact Lb|exact Hn].
  - injection H as <-. rewrite map_length. split; [reflexivity|]. split; [discriminate|]. intros i Hi.
    rewrite (nth_indep _ 0 (clamp0 0)) by (rewrite map_length; exact Hi). apply map_nth.
Qed.

Lemma total_power_defined inj prod : length inj = length prod -> exists t, total_power true inj prod = Some t.
Proof. intros H. unfold total_power. apply zipQ_defined. exact H. Qed.

Lemma prod_power_off nprod q eff dp rho : prod_power false nprod q eff dp rho = 0.
Proof. reflexivity. Qed.

Lemma Qdiv_mono a b c : 0 < c -> a <= b -> a / c <= b / c.
Proof. intros Hc H. apply Qmult_le_compat_r; [exact H|]. apply Qlt_le_weak, Qinv_lt_0_compat, Hc. Qed.

Lemma per_density_mono a b rho eff : 0 < rho -> 0 < eff -> a <= b -> a / rho / eff / 1000 <= b / rho / eff / 1000.
Proof. intros Hr He H. repeat apply Qdiv_mono; try assumption. reflexivity. Qed.

Lemma prod_power_mono nprod q eff rho dp1 dp2 :
  0 <= nprod -> 0 <= q -> 0 < rho -> 0 < eff -> dp2 <= dp1 ->
  prod_power true nprod q eff dp2 rho <= prod_power true nprod q eff dp1 rho.
Proof.
  intros Hn Hq Hr He H. apply clamp0_mono, per_density_mono; try assumption.
  do 2 (apply Qmult_le_compat_r; [|assumption]). exact H.
Qed.

Lemma inj_power_mono nprod q wl eff rho dp1 dp2 :
  0 <= nprod -> 0 <= q -> 0 <= 1 + wl -> 0 < rho -> 0 < eff -> dp2 <= dp1 ->
  inj_power nprod q wl eff dp2 rho <= inj_power nprod q wl eff dp1 rho.
Proof.
  intros Hn Hq Hw Hr He H. apply clamp0_mono, per_density_mono; try assumption.
  do 3 (apply Qmult_le_compat_r; [|assumption]). exact H.
Qed.

(* [imp_power] is [inj_power] with the number of injection wells in the place of [nprod].  It gets a statement of
   its own, over variables: converting one into the other around a [let]-bound pressure drop, as Props/C15.v would
   have to, makes the kernel unfold the clamp on a large term. *)
Lemma imp_power_mono ninj q wl eff rho dp1 dp2 :
  0 <= ninj -> 0 <= q -> 0 <= 1 + wl -> 0 < rho -> 0 < eff -> dp2 <= dp1 ->
  imp_power ninj q wl eff dp2 rho <= imp_power ninj q wl eff dp1 rho.
Proof. exact (inj_power_mono ninj q wl eff rho dp1 dp2). Qed.

Lemma all_nonneg_sound l : all_nonneg l = true -> forall i, (i < length l)%nat -> 0 <= nth i l 0.
Proof.
  unfold all_nonneg. intros H i Hi. rewrite forallb_forall in H. apply Qleb_true. apply H. apply nth_In. exact Hi.
Qed.

Lemma sum_ok_exact : forall t a b, sum_ok 0 t a b = true ->
  length t = length a /\ length t = length b /\ forall i, (i < length t)%nat -> nth i t 0 == nth i a 0 + nth i b 0.
Proof.
  induction t as [|x t IH]; intros a b H; destruct a as [|y a]; destruct b as [|z b]; cbn [sum_ok] in H; try discriminate.
  - repeat split. intros i Hi. inversion Hi.
  - apply andb_true_iff in H. destruct H as [Hc Hr]. apply close_0_eq in Hc.
    destruct (IH a b Hr) as (La & Lb & Hn).
    split; [exact (f_equal S La)|]. split; [exact (f_equal S Lb)|].
    intros [|j] Hi; [exact Hc|]. apply Hn, Nat.succ_lt_mono, Hi.
Qed.
