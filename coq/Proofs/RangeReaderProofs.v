(* Proofs/RangeReaderProofs.v - the range reader of Model/RangeReader.v (C07, reused by C19): the case analysis
   [read_param_cases] from which every statement about [read_param] is read off, the list branch, the bounds of a
   run-encoded AllowableRange, the lifting to a table row, and the witness rows of the refuted clauses. *)
From Coq Require Import QArith ZArith List String Bool Lia.
From Verif Require Import Base.Flat Base.ParamRec Proofs.FlatFacts Model.RangeReader.
Import ListNotations.
Open Scope Q_scope.

(* the value in use after the call is [v] *)
Definition final_is (p : param) (o : outcome) (v : Q) : Prop :=
  exists x, final p o = Some x /\ x == v.

(* membership tests written [existsb (eqb x)] *)
Lemma existsb_eq_In {A} (f : A -> bool) x l : (forall y, f y = true <-> x = y) -> existsb f l = true <-> In x l.
Proof.
  intros R. rewrite existsb_exists. split.
  - intros [y [Hy E]]. apply R in E. subst. exact Hy.
  - intros H. exists x. split; [exact H | apply R; reflexivity].
Qed.

Lemma oeq_compat o a b : a == b -> oeq o a = oeq o b.
Proof. intros H. destruct o as [d|]; cbn; [now rewrite H | reflexivity]. Qed.

Lemma oeq_true o v : oeq o v = true -> exists d, o = Some d /\ v == d.
Proof. destruct o as [d|]; cbn; intros H; [|discriminate]. exists d. split; [reflexivity|]. now apply Qeq_bool_iff. Qed.

Lemma oQeqb_true o v : oQeqb o v = true <-> exists x, o = Some x /\ x == v.
Proof.
  destruct o as [x|]; cbn.
  - rewrite Qeq_bool_iff. split; [eauto | intros [y [[= ->] H]]; exact H].
  - split; [discriminate | intros [y [[=] _]]].
Qed.

Lemma oeq_oQeqb o v : oeq o v = true -> oQeqb o v = true.
Proof. intros H. destruct (oeq_true _ _ H) as [d [Hd Hv]]. apply oQeqb_true. exists d. split; [exact Hd | symmetry; exact Hv]. Qed.

Lemma trunc_inject n : trunc (inject_Z n) = n.
Proof. unfold trunc, inject_Z. cbn. apply Z.quot_1_r. Qed.

Lemma integral_inject n : integral (inject_Z n) = true.
Proof. unfold integral. rewrite trunc_inject. apply Qeq_bool_iff. reflexivity. Qed.

Lemma integral_eq v : integral v = true -> inject_Z (trunc v) == v.
Proof. unfold integral. intros H. now apply Qeq_bool_iff. Qed.

Lemma Qleb_integral lo hi v :
  integral v = true -> Qleb (inject_Z lo) v && Qleb v (inject_Z hi) = (lo <=? trunc v)%Z && (trunc v <=? hi)%Z.
Proof.
  intros Hi. apply integral_eq in Hi. set (n := trunc v) in *. unfold Qleb. rewrite <- Hi.
  unfold Qle_bool. cbn. now rewrite !Z.mul_1_r.
Qed.

Definition in_interval (p : param) (v : Q) : bool := Qleb (p_min p) v && Qleb v (p_max p).

Lemma in_interval_true p v : in_interval p v = true <-> p_min p <= v /\ v <= p_max p.
Proof. unfold in_interval. rewrite andb_true_iff, !Qleb_true. reflexivity. Qed.

Lemma in_interval_false p v : in_interval p v = false <-> v < p_min p \/ p_max p < v.
Proof. unfold in_interval. rewrite andb_false_iff, !Qleb_false. reflexivity. Qed.

(* the test of the float and list branches is its complement: [Qltb a b] is [negb (Qleb b a)] by definition *)
Lemma range_test p v : Qltb v (p_min p) || Qltb (p_max p) v = negb (in_interval p v).
Proof. symmetry. apply negb_andb. Qed.

Lemma float_domain p v : p_kind p = KFloat -> in_domain p v = in_interval p v.
Proof. unfold in_domain. intros ->. reflexivity. Qed.

Lemma int_domain_inject p n : p_kind p = KInt -> in_domain p (inject_Z n) = in_runs n (p_range p).
Proof. unfold in_domain. intros ->. now rewrite trunc_inject, integral_inject. Qed.

Lemma read_list_eq p v rest : read_list p v rest = if in_interval p v then LStore (v :: rest) else LKeep.
Proof. unfold read_list. rewrite range_test. destruct (in_interval p v); reflexivity. Qed.

(* untouched (only at a 'not provided' value), accepted (the supplied value, inside the domain) or rejected by name
   (outside it); every statement about [read_param] below is read off this case analysis *)
Lemma read_param_cases p v :
  is_numeric p = true -> (p_kind p = KInt -> integral v = true) ->
  (read_param p v = Unchanged /\ is_sentinel p v = true /\ (no_shadow p v = true -> oQeqb (p_value p) v = true)) \/
  (exists w, read_param p v = Accept w /\ w == v /\ in_domain p v = true) \/
  (read_param p v = Reject (p_name p) /\ in_domain p v = false).
Proof.
  unfold is_numeric, read_param, is_sentinel, no_shadow. intros Hn Hi. destruct (p_kind p) eqn:Hk; try discriminate.
  - rewrite (float_domain p v Hk). unfold read_float. rewrite range_test. destruct (oeq (p_value p) v) eqn:Ev.
    + left. rewrite orb_true_r. auto using oeq_oQeqb.
    + right. destruct (in_interval p v); [left; exists v; split; [|split]; reflexivity | right; split; reflexivity].
  - specialize (Hi eq_refl). pose proof (integral_eq v Hi) as Hq.
    unfold in_domain, read_int. rewrite Hk, Hi, (oeq_compat (p_default p) _ _ Hq), (oeq_compat (p_value p) _ _ Hq).
    destruct (oeq (p_default p) v); [|destruct (oeq (p_value p) v) eqn:Ev]; cbn [orb negb andb].
    + left. repeat split. apply oeq_oQeqb.
    + left. repeat split. intros _. apply oeq_oQeqb, Ev.
    + right. destruct (in_runs (trunc v) (p_range p)); [left; exists (inject_Z (trunc v)) | right]; auto.
Qed.

Lemma model_meets_spec p v :
  is_numeric p = true -> (p_kind p = KInt -> integral v = true) -> no_shadow p v = true ->
  spec_ok p v (read_param p v) = true.
Proof.
  intros Hn Hi Hs. unfold spec_ok.
  destruct (read_param_cases p v Hn Hi) as [(-> & Sen & Val) | [(w & -> & Hw & ->) | (-> & ->)]].
  - destruct (in_domain p v); [exact (Val Hs) | exact Sen].
  - apply oQeqb_true. exists w. split; [reflexivity | exact Hw].
  - apply String.eqb_refl.
Qed.

Lemma reject_out_of_domain p v :
  is_numeric p = true -> (p_kind p = KInt -> integral v = true) ->
  in_domain p v = false -> is_sentinel p v = false -> read_param p v = Reject (p_name p).
Proof.
  intros Hn Hi Hd Hs. destruct (read_param_cases p v Hn Hi) as [(_ & Sen & _) | [(w & _ & _ & D) | (R & _)]]; congruence.
Qed.

Lemma accept_in_domain p v :
  is_numeric p = true -> (p_kind p = KInt -> integral v = true) -> no_shadow p v = true ->
  in_domain p v = true -> final_is p (read_param p v) v.
Proof.
  intros Hn Hi Hs Hd. pose proof (model_meets_spec p v Hn Hi Hs) as H.
  unfold spec_ok in H. rewrite Hd in H. apply oQeqb_true in H. exact H.
Qed.

(* a float parameter meets the side conditions of the lemmas above for every value *)
Lemma float_verdict p v :
  p_kind p = KFloat ->
  (in_interval p v = false -> is_sentinel p v = false -> read_param p v = Reject (p_name p)) /\
  (in_interval p v = true -> final_is p (read_param p v) v).
Proof.
  intros Hk. rewrite <- (float_domain p v Hk).
  assert (Hn : is_numeric p = true) by (unfold is_numeric; now rewrite Hk).
  assert (Hi : p_kind p = KInt -> integral v = true) by (rewrite Hk; discriminate).
  split; [apply reject_out_of_domain | apply accept_in_domain]; auto. unfold no_shadow. now rewrite Hk.
Qed.

Lemma reject_float p v :
  p_kind p = KFloat -> (v < p_min p \/ p_max p < v) -> is_sentinel p v = false ->
  read_param p v = Reject (p_name p).
Proof. intros Hk Hr. apply (float_verdict p v Hk), in_interval_false, Hr. Qed.

Lemma accept_float p v :
  p_kind p = KFloat -> p_min p <= v -> v <= p_max p -> final_is p (read_param p v) v.
Proof. intros Hk H1 H2. apply (float_verdict p v Hk), in_interval_true. auto. Qed.

Lemma accept_bounds_float p :
  p_kind p = KFloat -> p_min p <= p_max p ->
  final_is p (read_param p (p_min p)) (p_min p) /\ final_is p (read_param p (p_max p)) (p_max p).
Proof. intros Hk H. split; apply accept_float; auto using Qle_refl. Qed.

Lemma int_verdict p n :
  p_kind p = KInt ->
  (in_runs n (p_range p) = false -> is_sentinel p (inject_Z n) = false -> read_param p (inject_Z n) = Reject (p_name p)) /\
  (in_runs n (p_range p) = true -> no_shadow p (inject_Z n) = true -> final_is p (read_param p (inject_Z n)) (inject_Z n)).
Proof.
  intros Hk. rewrite <- (int_domain_inject p n Hk).
  assert (Hn : is_numeric p = true) by (unfold is_numeric; now rewrite Hk).
  pose proof (fun _ : p_kind p = KInt => integral_inject n) as Hi.
  split; intros; [apply reject_out_of_domain | apply accept_in_domain]; auto.
Qed.

(* what an int parameter does with ANY finite number: it is the truncation that is tested and stored *)
Lemma accept_int_is_trunc p v w :
  p_kind p = KInt -> read_param p v = Accept w -> w = inject_Z (trunc v) /\ in_runs (trunc v) (p_range p) = true.
Proof.
  unfold read_param. intros Hk H. rewrite Hk in H. unfold read_int in H.
  destruct (oeq (p_default p) _); [discriminate|]. destruct (oeq (p_value p) _); [discriminate|].
  destruct (in_runs (trunc v) (p_range p)) eqn:Hr; [|discriminate]. injection H as <-. auto.
Qed.

Lemma model_never_crashes p v : read_param p v <> Crash.
Proof.
  unfold read_param, read_float, read_int. destruct (p_kind p); try discriminate.
  - destruct (oeq _ _); [discriminate|]. destruct (_ || _); discriminate.
  - destruct (oeq _ _); [discriminate|]. destruct (oeq _ _); [discriminate|]. destruct (in_runs _ _); discriminate.
Qed.

(* an AllowableRange is empty, or it has a minimum and a maximum: they bound its members and, when every run is
   non-empty, are members themselves *)
Lemma runs_bounds rs :
  rs = [] \/
  exists lo hi, runs_min rs = Some lo /\ runs_max rs = Some hi /\
    (forall n, in_runs n rs = true -> (lo <= n <= hi)%Z) /\
    (runs_wf rs = true -> in_runs lo rs = true /\ in_runs hi rs = true).
Proof.
  induction rs as [|[a b] r IH]; [left; reflexivity | right].
  assert (C : forall n, in_runs n ((a, b) :: r) = true <-> (a <= n <= b)%Z \/ in_runs n r = true).
  { intros n. cbn. rewrite orb_true_iff, andb_true_iff, !Z.leb_le. reflexivity. }
  assert (W : runs_wf ((a, b) :: r) = true <-> (a <= b)%Z /\ runs_wf r = true).
  { cbn. rewrite andb_true_iff, Z.leb_le. reflexivity. }
  cbn [runs_min runs_max]. destruct IH as [-> | (lo & hi & -> & -> & Bd & Mem)].
  - exists a, b. repeat apply conj; try reflexivity.
    + intros n Hn. apply C in Hn. destruct Hn as [Hn|Hn]; [lia | discriminate].
    + intros Hw. apply W in Hw. split; apply C; left; lia.
  - exists (Z.min a lo), (Z.max b hi). repeat apply conj; try reflexivity.
    + intros n Hn. apply C in Hn. destruct Hn as [Hn|Hn]; [|apply Bd in Hn]; lia.
    + intros Hw. apply W in Hw. destruct Hw as [Hab Hw]. destruct (Mem Hw) as [Ml Mh]. split; apply C.
      * destruct (Z.min_spec a lo) as [[_ ->]|[_ ->]]; [left; lia | right; exact Ml].
      * destruct (Z.max_spec b hi) as [[_ ->]|[_ ->]]; [right; exact Mh | left; lia].
Qed.

Definition row_property (p : param) : Prop :=
  exists lo hi, lo_bound p = Some lo /\ hi_bound p = Some hi /\
    final_is p (read_param p lo) lo /\ final_is p (read_param p hi) hi /\
    forall v, (p_kind p = KInt -> integral v = true) -> (v < lo \/ hi < v) -> is_sentinel p v = false ->
              read_param p v = Reject (p_name p).

Lemma row_ok_property p : is_numeric p = true -> row_ok p = true -> row_property p.
Proof.
  unfold is_numeric, row_ok, row_property, lo_bound, hi_bound. intros Hn Hr.
  destruct (p_kind p) eqn:Hk; try discriminate.
  - apply Qleb_true in Hr. exists (p_min p), (p_max p).
    repeat split; try (apply accept_bounds_float; assumption). intros v _ Hv Hs. apply reject_float; auto.
  - apply andb_true_iff in Hr. destruct Hr as [Hr Hhi]. apply andb_true_iff in Hr. destruct Hr as [Hw Hlo].
    destruct (runs_bounds (p_range p)) as [E | (lo & hi & Elo & Ehi & Bd & Mem)]; [rewrite E in Hlo; discriminate|].
    destruct (Mem Hw) as [Ml Mh]. rewrite Elo in Hlo |- *. rewrite Ehi in Hhi |- *.
    cbn in Hlo, Hhi |- *. exists (inject_Z lo), (inject_Z hi). repeat split; try (apply int_verdict; assumption).
    intros v Hi Hv Hs. specialize (Hi eq_refl). apply reject_out_of_domain; auto.
    + unfold is_numeric. now rewrite Hk.
    + unfold in_domain. rewrite Hk, Hi. cbn [andb].
      destruct (in_runs (trunc v) (p_range p)) eqn:E; [|reflexivity]. exfalso.
      apply Bd in E. rewrite <- (integral_eq v Hi), <- !Zlt_Qlt in Hv. lia.
Qed.

(* witness rows for the refuted clauses, copied from the declarations of WellBores / AGSWellBores *)

Definition w_production_wells : param :=
  mkParam "WellBores" "Number of Production Wells" KInt (Some (2#1)) (Some (2#1)) 0 0 [(1, 200)%Z]
          "" "" "NONE" true "integer" "2/1".

Definition w_ags_laterals : param :=
  mkParam "AGSWellBores" "Number of Multilateral Sections" KInt (Some (0#1)) (Some (1#1)) 0 0 [(0, 100)%Z]
          "" "" "NONE" false "integer" "0/1".

