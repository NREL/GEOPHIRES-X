(* Proofs/RedrillProofs.v - the redrilling step of Model/Redrill.v: where the index falls, that the result is the first
   cycle tiled over the length of the series (length, floor, element j = element j mod index, head, bounds), the reported
   count, and soundness of the checkers that are run on the series of the real code *)
From Coq Require Import QArith Qabs Qminmax List ZArith Bool Lia Lqa PeanoNat.
From Verif Require Import Base.Flat Proofs.FlatFacts Model.Redrill.
Import ListNotations.
Open Scope Q_scope.

(* the step at which WellBores.Calculate redrills: np.argmax of the "below the limit" mask, 0 when it never happens *)
Definition index_of (P : list Q) (maxdd : Q) : nat := argmax_below (drawdown_limit maxdd P) P.

(* the cycle the monotone checker works with: the whole series when nothing was redrilled *)
Definition cycle_of (idx : nat) (l : list Q) : nat := if Nat.eqb idx 0 then length l else idx.

Lemma first_below_prefix lim l : forall i, first_below lim l = Some i -> Forall (fun x => lim <= x) (firstn i l).
Proof.
  induction l as [|x r IH]; intros i H; cbn in H. discriminate.
  destruct (Qltb_spec x lim). injection H as <-. constructor.
  destruct (first_below lim r) as [j|] eqn:E; [|discriminate]. injection H as <-.
  cbn. constructor. lra. apply IH. reflexivity.
Qed.

Lemma first_below_none lim l : first_below lim l = None -> Forall (fun x => lim <= x) l.
Proof.
  induction l as [|x r IH]; intros H; cbn in H. constructor.
  destruct (Qltb_spec x lim). discriminate.
  destruct (first_below lim r); [discriminate|]. constructor. lra. apply IH. reflexivity.
Qed.

Lemma first_below_lt lim l : forall i, first_below lim l = Some i -> (i < length l)%nat.
Proof.
  induction l as [|x r IH]; intros i E; cbn in E. discriminate.
  destruct (Qltb x lim). injection E as <-. cbn. lia.
  destruct (first_below lim r) eqn:E'; [|discriminate]. injection E as <-. cbn. specialize (IH _ eq_refl). lia.
Qed.

Lemma first_below_hit lim l : forall i, first_below lim l = Some i -> nth i l 0 < lim.
Proof.
  induction l as [|x r IH]; intros i E; cbn in E. discriminate.
  destruct (Qltb_spec x lim). injection E as <-. cbn. assumption.
  destruct (first_below lim r) eqn:E'; [|discriminate]. injection E as <-. cbn. apply IH. reflexivity.
Qed.

(* np.argmax returns 0 also when nothing is below the limit: if the first element is not, nothing is *)
Lemma never_below lim l : argmax_below lim l = 0%nat -> lim <= hd 0 l -> Forall (fun x => lim <= x) l.
Proof.
  unfold argmax_below. destruct (first_below lim l) as [i|] eqn:F; [|intros _ _; apply first_below_none, F].
  intros -> H. apply first_below_hit in F. destruct l; cbn [nth hd] in *; lra.
Qed.

Lemma Forall_tile (A : Type) (Pr : A -> Prop) l k : Forall Pr l -> Forall Pr (tile l k).
Proof. intros H. induction k; cbn. constructor. apply Forall_app. split; assumption. Qed.

Lemma Forall_firstn (A : Type) (Pr : A -> Prop) n (l : list A) : Forall Pr l -> Forall Pr (firstn n l).
Proof. revert l. induction n; intros l H; cbn. constructor. destruct H; constructor; auto. Qed.

Lemma tile_length (A : Type) (l : list A) k : length (tile l k) = (k * length l)%nat.
Proof. induction k; cbn. reflexivity. rewrite app_length, IHk. reflexivity. Qed.

Lemma nth_tile (A : Type) (d : A) (l : list A) : (length l <> 0)%nat ->
  forall k j, (j < k * length l)%nat -> nth j (tile l k) d = nth (j mod length l) l d.
Proof.
  intros Hl. induction k; intros j Hj. inversion Hj. cbn [tile].
  destruct (Nat.lt_ge_cases j (length l)) as [H|H].
  - rewrite app_nth1, Nat.mod_small by assumption. reflexivity.
  - rewrite app_nth2, IHk by (assumption || cbn in Hj; lia).
    rewrite <- (Nat.mod_add (j - length l) 1), Nat.mul_1_l, Nat.sub_add by assumption. reflexivity.
Qed.

(* the first n elements of k copies of the first cycle l[0..idx), when these copies cover n *)
Section Cycles.
  Context (A : Type) (d : A) (l : list A) (idx n k : nat).
  Hypothesis idx_pos : (idx <> 0)%nat.
  Hypothesis idx_le : (idx <= length l)%nat.
  Hypothesis cover : (n <= k * idx)%nat.

  Lemma cycles_length : length (firstn n (tile (firstn idx l) k)) = n.
  Proof. rewrite firstn_length, tile_length, firstn_length_le by assumption. apply Nat.min_l, cover. Qed.

  Lemma cycles_nth j : (j < n)%nat -> nth j (firstn n (tile (firstn idx l) k)) d = nth (j mod idx) l d.
  Proof.
    intros Hj. pose proof (firstn_length_le l idx_le) as E.
    rewrite nth_firstn_lt, nth_tile, E, nth_firstn_lt; rewrite ?E; try assumption.
    reflexivity. apply Nat.mod_upper_bound, idx_pos. apply (Nat.lt_le_trans _ _ _ Hj cover).
  Qed.
End Cycles.

Lemma redrill_index P T maxdd : rd_index (redrill P T maxdd) = index_of P maxdd.
Proof.
  unfold redrill, index_of. cbv zeta. destruct (Nat.eqb_spec (argmax_below (drawdown_limit maxdd P) P) 0) as [E|E]; cbn.
  symmetry. exact E. reflexivity.
Qed.

Lemma redrill_unchanged P T maxdd : index_of P maxdd = 0%nat ->
  redrill P T maxdd = {| rd_P := P; rd_T := T; rd_count := 0; rd_index := 0 |}.
Proof. intros H. unfold redrill. cbv zeta. unfold index_of in H. rewrite H. reflexivity. Qed.

Lemma redrill_changed P T maxdd : index_of P maxdd <> 0%nat ->
  let idx := index_of P maxdd in let r := (length P / idx)%nat in
  let Pn := firstn (length P) (tile (firstn idx P) (S r)) in
  redrill P T maxdd = {| rd_P := Pn; rd_T := firstn (length Pn) (tile (firstn idx T) (S r)); rd_count := r; rd_index := idx |}.
Proof.
  intros H. unfold redrill. cbv zeta. unfold index_of in *.
  destruct (Nat.eqb_spec (argmax_below (drawdown_limit maxdd P) P) 0); [contradiction|reflexivity].
Qed.

Lemma index_lt P maxdd : index_of P maxdd <> 0%nat -> (index_of P maxdd < length P)%nat.
Proof.
  unfold index_of, argmax_below. destruct (first_below _ P) eqn:E; [|contradiction]. intros _. eapply first_below_lt, E.
Qed.

(* the index is the first step at which the production temperature is below the limit *)
Theorem index_spec P maxdd : index_of P maxdd <> 0%nat ->
  nth (index_of P maxdd) P 0 < drawdown_limit maxdd P /\
  Forall (fun x => drawdown_limit maxdd P <= x) (firstn (index_of P maxdd) P).
Proof.
  unfold index_of, argmax_below. destruct (first_below _ P) eqn:E; [|contradiction]. intros _. split.
  eapply first_below_hit, E. apply first_below_prefix, E.
Qed.

(* n/idx + 1 cycles cover n; the count n/idx reported for them *)
Lemma cycle_count_facts (n idx : nat) : (idx <> 0)%nat -> (idx < n)%nat ->
  let r := (n / idx)%nat in
  (n <= S r * idx)%nat /\ (1 <= r)%nat /\ ((r - 1) * idx < n)%nat /\
  ((r * idx < n)%nat <-> (n mod idx <> 0)%nat) /\ ((n mod idx = 0)%nat -> (r * idx = n)%nat).
Proof.
  intros Hi Hlt. cbv zeta. pose proof (Nat.div_mod n idx Hi) as H. pose proof (Nat.mod_upper_bound n idx Hi) as Hm.
  rewrite Nat.mul_comm in H.
  (* with the quotient a successor, everything is linear in the product q * idx *)
  destruct (n / idx)%nat as [|q]; cbn [Nat.mul Nat.sub] in *; [lia|]. rewrite Nat.sub_0_r. lia.
Qed.

Theorem redrill_length P T maxdd :
  length (rd_P (redrill P T maxdd)) = length P /\
  (length T = length P -> length (rd_T (redrill P T maxdd)) = length P).
Proof.
  destruct (Nat.eq_dec (index_of P maxdd) 0) as [E|E].
  - rewrite redrill_unchanged by assumption. split; [reflexivity|intros H; exact H].
  - rewrite redrill_changed by assumption. cbv zeta. cbn [rd_P rd_T].
    pose proof (index_lt P maxdd E) as Hlt. destruct (cycle_count_facts _ _ E Hlt) as [Hc _].
    assert (HP : length (firstn (length P) (tile (firstn (index_of P maxdd) P) (S (length P / index_of P maxdd)))) = length P)
      by (apply cycles_length; [apply Nat.lt_le_incl|]; assumption).
    split; [exact HP|]. intros HT. rewrite HP. apply cycles_length; [rewrite HT; apply Nat.lt_le_incl|]; assumption.
Qed.

(* the floor (1 - maxdrawdown) x the initial production temperature; the bound maxdd <= 1 plays no part *)
Theorem redrill_floor P T maxdd : 0 <= hd 0 P -> 0 <= maxdd <= 1 ->
  Forall (fun x => drawdown_limit maxdd P <= x) (rd_P (redrill P T maxdd)).
Proof.
  intros H0 [Hm0 _]. destruct (Nat.eq_dec (index_of P maxdd) 0) as [E|E].
  - rewrite redrill_unchanged by assumption. cbn [rd_P]. apply never_below; [exact E|]. unfold drawdown_limit. nra.
  - rewrite redrill_changed by assumption. apply Forall_firstn, Forall_tile, (index_spec P maxdd E).
Qed.

Theorem redrill_cycle P T maxdd : index_of P maxdd <> 0%nat -> length T = length P ->
  forall j, (j < length P)%nat ->
    nth j (rd_P (redrill P T maxdd)) 0 = nth (j mod index_of P maxdd) P 0 /\
    nth j (rd_T (redrill P T maxdd)) 0 = nth (j mod index_of P maxdd) T 0.
Proof.
  intros E HT j Hj. destruct (redrill_length P T maxdd) as [HlP _].
  rewrite redrill_changed in * by assumption. cbv zeta in *. cbn [rd_P rd_T] in *. rewrite HlP.
  pose proof (Nat.lt_le_incl _ _ (index_lt P maxdd E)) as Hle. destruct (cycle_count_facts _ _ E (index_lt P maxdd E)) as [Hc _].
  split; apply cycles_nth; try assumption. rewrite HT. assumption.
Qed.

Lemma tile_nil (A : Type) k : tile (@nil A) k = [].
Proof. induction k; [reflexivity|exact IHk]. Qed.

(* whatever the lengths of the two series *)
Theorem head_preserved P T maxdd : hd 0 (rd_T (redrill P T maxdd)) = hd 0 T.
Proof.
  destruct (Nat.eq_dec (index_of P maxdd) 0) as [E|E].
  - rewrite redrill_unchanged by assumption. reflexivity.
  - (* a first cycle of at least one step, cut to the at least one step of the series, keeps its head *)
    pose proof (index_lt P maxdd E) as Hlt. destruct (redrill_length P T maxdd) as [HP _].
    rewrite redrill_changed in * by assumption. cbv zeta in *. cbn [rd_P rd_T] in *. rewrite HP.
    destruct (index_of P maxdd) as [|i]; [contradiction|]. destruct (length P) as [|n]; [inversion Hlt|].
    destruct T; [cbn [firstn]; rewrite tile_nil|]; reflexivity.
Qed.

Theorem cycles_bounded P T maxdd B : Forall (fun x => x <= B) T -> Forall (fun x => x <= B) (rd_T (redrill P T maxdd)).
Proof.
  intros H. destruct (Nat.eq_dec (index_of P maxdd) 0) as [E|E].
  - rewrite redrill_unchanged by assumption. exact H.
  - rewrite redrill_changed by assumption. cbv zeta. cbn [rd_T].
    apply Forall_firstn, Forall_tile, Forall_firstn. exact H.
Qed.

(* a second WellBores.Calculate call on the same object (district heating), pinned code (before fix 825a507):
   series recomputed, count carried over *)
Theorem redrill_call_pinned_series prev P T maxdd :
  rd_P (redrill_call_pinned prev P T maxdd) = rd_P (redrill P T maxdd) /\
  rd_T (redrill_call_pinned prev P T maxdd) = rd_T (redrill P T maxdd) /\
  rd_index (redrill_call_pinned prev P T maxdd) = rd_index (redrill P T maxdd).
Proof.
  unfold redrill_call_pinned. cbv zeta. destruct (Nat.eqb_spec (rd_index (redrill P T maxdd)) 0) as [E|E]; cbn; auto.
Qed.

Lemma all_ge_sound lo l : all_ge lo l = true -> Forall (fun x => lo <= x) l.
Proof.
  induction l as [|x r IH]; cbn; intros H. constructor.
  destruct (Qleb_spec lo x); [|discriminate]. constructor. assumption. apply IH. exact H.
Qed.

Lemma all_le_sound hi l : all_le hi l = true -> Forall (fun x => x <= hi) l.
Proof.
  induction l as [|x r IH]; cbn; intros H. constructor.
  destruct (Qleb_spec x hi); [|discriminate]. constructor. assumption. apply IH. exact H.
Qed.

Lemma prefix_eq_sound : forall a b, prefix_eq a b = true ->
  forall j, (j < length a)%nat -> (j < length b)%nat -> nth j a 0 == nth j b 0.
Proof.
  induction a as [|x a IH]; intros b H j Ha Hb; cbn in Ha. lia.
  destruct b as [|y b]; cbn in Hb. lia. cbn in H.
  destruct (Qeqb x y) eqn:E; [|discriminate]. apply Qeqb_true in E.
  destruct j; cbn. exact E. apply IH; [assumption|lia|lia].
Qed.

Lemma mod_succ_case p m : (m <> 0)%nat ->
  (S p mod m = if Nat.eqb (S (p mod m)) m then 0 else S (p mod m))%nat.
Proof.
  intros Hm. pose proof (Nat.div_mod p m Hm) as Hp. pose proof (Nat.mod_upper_bound p m Hm) as Hu.
  destruct (Nat.eqb_spec (S (p mod m)) m) as [E|E]; symmetry.
  - apply (Nat.mod_unique _ _ (S (p / m))); [lia|]. rewrite Nat.mul_succ_r. lia.
  - apply (Nat.mod_unique _ _ (p / m)); lia.
Qed.

Lemma succ_mod a m : (m <> 0)%nat -> (S a mod m <> 0)%nat -> (S a mod m = S (a mod m))%nat.
Proof.
  intros Hm. rewrite (mod_succ_case a m Hm). destruct (Nat.eqb (S (a mod m)) m); [intros H; destruct (H eq_refl)|reflexivity].
Qed.

(* [prev] sits at position p-1, the elements of l at p, p+1, ...; c is p mod m *)
Lemma noninc_cycles_sound tol m : (m <> 0)%nat ->
  forall l p c prev, c = (p mod m)%nat -> noninc_cycles tol m c prev l = true ->
  forall j, (j < length l)%nat -> ((p + j) mod m <> 0)%nat ->
    nth (S j) (prev :: l) 0 <= nth j (prev :: l) 0 + slack tol (nth j (prev :: l) 0).
Proof.
  intros Hm. induction l as [|x r IH]; intros p c prev Hc H j Hj Hmod; cbn in Hj. lia.
  cbn [noninc_cycles] in H.
  assert (Hc' : (if Nat.eqb (S c) m then 0 else S c)%nat = (S p mod m)%nat) by (subst c; symmetry; apply mod_succ_case; assumption).
  destruct j as [|j].
  - rewrite Nat.add_0_r in Hmod. destruct (Nat.eqb_spec c 0) as [E|E]; [destruct Hmod; rewrite <- Hc; exact E|].
    cbn [nth]. destruct (Qleb_spec x (prev + slack tol prev)); [assumption|discriminate].
  - assert (Hr : noninc_cycles tol m (if Nat.eqb (S c) m then 0 else S c)%nat x r = true).
    { destruct (Nat.eqb c 0); [exact H|]. destruct (Qleb x (prev + slack tol prev)); [exact H|discriminate]. }
    change (nth (S (S j)) (prev :: x :: r) 0) with (nth (S j) (x :: r) 0).
    change (nth (S j) (prev :: x :: r) 0) with (nth j (x :: r) 0).
    apply (IH (S p) _ x Hc' Hr j). lia. replace (S p + j)%nat with (p + S j)%nat by lia. exact Hmod.
Qed.

(* the checker accepts only series that, inside every cycle, never rise by more than the stated slack (none for tol = 0) *)
Theorem noninc_between_sound tol idx l : noninc_between tol idx l = true ->
  forall j, (S j < length l)%nat -> (S j mod cycle_of idx l <> 0)%nat ->
    nth (S j) l 0 <= nth j l 0 + slack tol (nth j l 0).
Proof.
  unfold noninc_between, cycle_of. destruct l as [|x r]; intros H j Hj Hmod; [inversion Hj|].
  (* the counter starts at 1 mod the cycle length; a cycle of length 1 (idx = 1, or idx = 0 on a singleton) has no interior *)
  assert (Hc : (if Nat.eqb idx 1 then 0 else 1)%nat = (1 mod (if Nat.eqb idx 0 then length (x :: r) else idx))%nat).
  { destruct idx as [|[|i]]; cbn [Nat.eqb]; [|reflexivity|]; symmetry; apply Nat.mod_small; cbn [length] in *; lia. }
  assert (Hm : (if Nat.eqb idx 0 then length (x :: r) else idx) <> 0%nat) by (destruct idx; discriminate).
  apply (noninc_cycles_sound tol _ Hm r 1%nat _ x Hc H j).
  - apply Nat.succ_lt_mono, Hj.
  - exact Hmod.
Qed.

Theorem lhs_range_ok_sound Trock Tinj l : lhs_range_ok 0 Trock Tinj l = true ->
  Forall (fun x => x == Trock \/ (Tinj <= x /\ x <= Trock)) l.
Proof.
  induction l as [|x r IH]; cbn [lhs_range_ok]; intros H. constructor.
  destruct (Qeqb x Trock || (Qleb (Tinj - slack 0 Tinj) x && Qleb x (Trock + slack 0 Trock))) eqn:E; [|discriminate].
  constructor; [|apply IH; exact H].
  apply orb_true_iff in E. destruct E as [E|E]. left. apply Qeqb_true. exact E.
  apply andb_true_iff in E. destruct E as [E1 E2]. apply Qleb_true in E1, E2. unfold slack in *. right. lra.
Qed.
