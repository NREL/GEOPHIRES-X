(* Proofs/ReportProofs.v - facts about the table model Model/Report.v, for every number of years, label offset,
   stride, row template and series. *)
From Coq Require Import String Ascii QArith ZArith List Bool Lia.
From Verif Require Import Model.Fmt Model.Float Model.Report Proofs.FmtProofs.
Import ListNotations.

Lemma mapM_length {A B} (f : A -> option B) l r : mapM f l = Some r -> length r = length l.
Proof.
  revert r. induction l as [|x l IH]; intros r H; simpl in H.
  - inversion H. reflexivity.
  - destruct (f x); [|discriminate]. destruct (mapM f l); [|discriminate]. inversion H. simpl. f_equal. apply IH. reflexivity.
Qed.

Lemma mapM_nth {A B} (f : A -> option B) l r : mapM f l = Some r ->
  forall i x, nth_error l i = Some x -> exists y, f x = Some y /\ nth_error r i = Some y.
Proof.
  revert r. induction l as [|a l IH]; intros r H i x Hi.
  - destruct i; discriminate.
  - simpl in H. destruct (f a) eqn:Fa; [|discriminate]. destruct (mapM f l) eqn:M; [|discriminate]. inversion H; subst.
    destruct i; simpl in *.
    + inversion Hi; subst. exists b. auto.
    + eapply IH; eauto.
Qed.

Lemma mapM_none {A B} (f : A -> option B) l : mapM f l = None <-> exists x, In x l /\ f x = None.
Proof.
  induction l as [|a l IH]; simpl.
  - split; [discriminate|intros (x & [] & _)].
  - destruct (f a) eqn:Fa; [destruct (mapM f l)|]; split; try discriminate; try reflexivity.
    + intros (x & [->|Hx] & Hn); [congruence|]. enough (Some l0 = None) by discriminate. apply IH. eauto.
    + intros _. destruct (proj1 IH eq_refl) as (x & Hx & Hn). eauto.
    + intros _. eauto.
Qed.

(* for i in range(0, n): one result per i, in order *)
Lemma mapM_seq {B} (f : nat -> option B) n rows : mapM f (seq 0 n) = Some rows ->
  length rows = n /\ forall i, (i < n)%nat -> exists s, f i = Some s /\ nth_error rows i = Some s.
Proof.
  intros H. split; [rewrite (mapM_length _ _ _ H); apply seq_length|]. intros i Hi.
  apply (mapM_nth _ _ _ H). rewrite (nth_error_nth' _ 0%nat), seq_nth by (rewrite ?seq_length; exact Hi). reflexivity.
Qed.

(* one row per year, in order; row i shows the year label i+off and the series entries at index i*k, in column order *)
Lemma table_rows n off k segs cols rows : table n off k segs cols = Some rows ->
  length rows = n /\
  forall i, (i < n)%nat ->
    exists vs s, nth_error rows i = Some s /\ mapM (fun c => nth_error c (i * k)) cols = Some vs /\
      render_line segs (year_cell (i + off) :: map Num vs) = Some s.
Proof.
  intros H. destruct (mapM_seq _ _ _ H) as [L R]. split; [exact L|]. intros i Hi.
  destruct (R i Hi) as (s & Hs & Hr). unfold table_row, row_cells in Hs.
  destruct (mapM _ cols) as [vs|]; [|discriminate]. exists vs, s. auto.
Qed.

(* the same with every cell an expression of the float model, evaluated with every SRow leaf read at index i*k *)
Lemma etable_rows n off k segs cols rows : etable n off k segs cols = Some rows ->
  length rows = n /\
  forall i, (i < n)%nat ->
    exists vs s, nth_error rows i = Some s /\ mapM (seval (Some (i * k)%nat)) cols = Some vs /\
      render_line segs (year_cell (i + off) :: map (fun x => Num (fl_fval x)) vs) = Some s.
Proof.
  intros H. destruct (mapM_seq _ _ _ H) as [L R]. split; [exact L|]. intros i Hi.
  destruct (R i Hi) as (s & Hs & Hr). unfold etable_row, erow_cells in Hs.
  destruct (mapM _ cols) as [vs|]; [|discriminate]. exists vs, s. auto.
Qed.

(* row i cannot be filled (IndexError) exactly when some series is too short for it *)
Lemma row_cells_none off k cols i : row_cells off k cols i = None <-> exists c, In c cols /\ (length c <= i * k)%nat.
Proof.
  unfold row_cells. pose proof (mapM_none (fun c => nth_error c (i * k)) cols) as M.
  setoid_rewrite nth_error_None in M. rewrite <- M. destruct (mapM _ cols); split; congruence.
Qed.

Lemma table_row_none segs off k cols i : table_row segs off k cols i = None <->
  (exists c, In c cols /\ (length c <= i * k)%nat) \/ (exists cs, row_cells off k cols i = Some cs /\ render_line segs cs = None).
Proof.
  rewrite <- (row_cells_none off). unfold table_row. destruct (row_cells off k cols i) as [cs|].
  - split; [eauto|]. intros [E|(cs' & E & R)]; [discriminate E|injection E as <-; exact R].
  - split; [auto|reflexivity].
Qed.

Lemma table_none n off k segs cols : table n off k segs cols = None <-> exists i, (i < n)%nat /\ table_row segs off k cols i = None.
Proof.
  unfold table. rewrite mapM_none. split; intros (i & Hi & Hn); exists i; (split; [|exact Hn]); [apply in_seq in Hi|apply in_seq]; lia.
Qed.

Lemma opex_col_nth cy n coam ii : (ii < cy + n)%nat ->
  nth_error (opex_col cy n coam) ii = Some (if (ii <? cy)%nat then Fin 0 else coam).
Proof.
  intros H. unfold opex_col. destruct (ii <? cy)%nat eqn:E.
  - apply Nat.ltb_lt in E. rewrite nth_error_app1 by (rewrite repeat_length; exact E).
    rewrite (nth_error_nth' _ (Fin 0)) by (rewrite repeat_length; exact E). rewrite nth_repeat. reflexivity.
  - apply Nat.ltb_ge in E. rewrite nth_error_app2 by (rewrite repeat_length; exact E). rewrite repeat_length.
    rewrite (nth_error_nth' _ coam) by (rewrite repeat_length; lia). rewrite nth_repeat. reflexivity.
Qed.

Lemma opex_col_length cy n coam : length (opex_col cy n coam) = (cy + n)%nat.
Proof. unfold opex_col. rewrite app_length, !repeat_length. reflexivity. Qed.

Lemma nth_error_insert {A} pos (l : list A) x : (pos <= length l)%nat -> nth_error (firstn pos l ++ x :: skipn pos l) pos = Some x.
Proof.
  intros H. rewrite nth_error_app2, firstn_length, Nat.min_l, Nat.sub_diag by (rewrite ?firstn_length; lia). reflexivity.
Qed.

Lemma append_empty s : (s ++ "")%string = s.
Proof. induction s; simpl; [reflexivity|f_equal; exact IHs]. Qed.

(* a column that is just a series reads it at i*k: None when the series is too short (IndexError) or the entry is FBad *)
Lemma plain_col_reads c idx : seval (Some idx) (plain_col c) = match nth_error c idx with Some x => not_bad x | None => None end.
Proof. reflexivity. Qed.

Lemma plain_col_index_error c idx : (length c <= idx)%nat -> seval (Some idx) (plain_col c) = None.
Proof. intros H. rewrite plain_col_reads. apply nth_error_None in H. rewrite H. reflexivity. Qed.

Local Open Scope Q_scope.
Lemma unit_current p : printed_unit UCur p = q_cur p.
Proof. reflexivity. Qed.
