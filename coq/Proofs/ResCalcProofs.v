(* Proofs/ResCalcProofs.v - the rational remainder of Reservoir.Calculate (Model/ResCalc.v): what the fracture-shape
   options keep, the volume identity V = (N - 1) x A x separation of volume options 1-3, heat content proportional to
   the volume *)
From Coq Require Import QArith Qminmax List ZArith Bool Lia Lqa PeanoNat.
From Verif Require Import Base.Flat Proofs.FlatFacts Model.Gradient Model.ResCalc.
Import ListNotations.
Open Scope Q_scope.

Lemma geometry_keeps shape pi sq s :
  fs_numb (frac_geometry shape pi sq s) = fs_numb s /\ fs_sep (frac_geometry shape pi sq s) = fs_sep s /\
  fs_vol (frac_geometry shape pi sq s) = fs_vol s.
Proof.
  unfold frac_geometry.
  destruct (shape =? 1)%Z; [|destruct (shape =? 2)%Z; [|destruct (shape =? 3)%Z; [|destruct (shape =? 4)%Z]]];
    repeat split.
Qed.

(* the circular fracture of diameter r has the area it was computed from *)
Lemma circle_area pi r a : ~ pi == 0 -> r * r == 4 / pi * a -> pi / 4 * r * r == a.
Proof. intros Hpi Hsq. rewrite <- Qmult_assoc, Hsq. field. exact Hpi. Qed.

(* options 1-3 make volume, fracture number, area and separation consistent: V = (N - 1) * A * s;
   option 3 divides the input volume, which must be what the state holds *)
Lemma res_volume_identity opt resvol g s : res_volume opt resvol g = Good s -> (1 <= opt <= 3)%Z ->
  fs_vol g == resvol -> fs_vol s == (fs_numb s - 1) * fs_area s * fs_sep s.
Proof.
  unfold res_volume. intros H Hopt Hv.
  destruct (Z.eqb_spec opt 1); [injection H as <-; reflexivity|].
  destruct (Z.eqb_spec opt 2).
  { destruct (Qeqb (fs_area g) 0) eqn:Za; [discriminate|]. destruct (Qeqb (fs_sep g) 0) eqn:Zs; [discriminate|].
    injection H as <-. cbn. field. split; apply Qeqb_false; assumption. }
  destruct (Z.eqb_spec opt 3); [|lia].
  destruct (Qeqb (fs_area g) 0) eqn:Za; [discriminate|]. destruct (Qeqb (fs_numb g - 1) 0) eqn:Zn; [discriminate|].
  injection H as <-. cbn. rewrite Hv. field. split; apply Qeqb_false; assumption.
Qed.

(* options 1 and 4 never raise *)
Theorem volume_defined r : (ri_opt r = 1 \/ ri_opt r = 4)%Z -> exists s, geometry_of r = Good s.
Proof. intros [E|E]; unfold geometry_of; rewrite E; cbn [res_volume Z.eqb]; eexists; reflexivity. Qed.

Lemma heat_content_volume vol rho cp T Tinj : heat_content vol rho cp T Tinj == vol * heat_content 1 rho cp T Tinj.
Proof. unfold heat_content, Qdiv. generalize (T - Tinj) (/ 1000000000000000). intros x y. ring. Qed.
