(* Proofs/ResultHistoryProofs.v - the modelled parser has no state. *)
From Coq Require Import String List.
From Verif Require Import Model.ResultHistory.
Import ListNotations.
Open Scope string_scope.

Lemma run_app : forall (R : Type) (parse : string -> R) ops s ops',
  run parse s (ops ++ ops') = (run parse s ops ++ run parse (files_after s ops) ops')%list.
Proof.
  induction ops as [|[p t|p] ops IH]; intros s ops'; simpl; [reflexivity | apply IH | now rewrite IH].
Qed.

Lemma run_length : forall (R : Type) (parse : string -> R) ops s, List.length (run parse s ops) = parses ops.
Proof. induction ops as [|[p t|p] ops IH]; intros s; simpl; auto. Qed.

(* earlier Parse operations leave no trace: the files, hence every later answer, depend on the writes only *)
Lemma files_ignore_parses : forall ops s, files_after s ops = files_after s (filter is_write ops).
Proof. induction ops as [|[p t|p] ops IH]; intros s; simpl; auto. Qed.

Lemma export_twice : forall (Res C : Type) (csv : Res -> C) (r : Res),
  answers csv r [ReadResult; Export; ReadResult; Export] = [inl r; inr (csv r); inl r; inr (csv r)].
Proof. reflexivity. Qed.
