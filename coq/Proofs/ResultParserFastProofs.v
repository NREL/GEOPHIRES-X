(* Proofs/ResultParserFastProofs.v - the indexed field search finds exactly the same candidates. *)
From Coq Require Import String Ascii List Bool.
From Verif Require Import Base.Flat Model.ResultParser Model.ResultParserFast Proofs.ResultParserProofs.
Import ListNotations.
Open Scope string_scope.

Lemma rev_onto_app : forall a b acc, rev_onto (a ++ b) acc = rev_onto b (rev_onto a acc).
Proof. induction a; simpl; intros; [reflexivity | apply IHa]. Qed.

Lemma rev_onto_acc : forall a acc, rev_onto a acc = rev_onto a "" ++ acc.
Proof.
  induction a; intros acc; [reflexivity |]. simpl. rewrite IHa, (IHa (String a "")).
  now rewrite app_assoc_s.
Qed.

Lemma rev_str_app : forall a b, rev_str (a ++ b) = rev_str b ++ rev_str a.
Proof. intros. unfold rev_str. rewrite rev_onto_app. apply rev_onto_acc. Qed.

Lemma rev_str_involutive : forall a, rev_str (rev_str a) = a.
Proof.
  induction a; [reflexivity |]. change (String a a0) with (String a "" ++ a0).
  rewrite rev_str_app, rev_str_app, IHa. reflexivity.
Qed.

Lemma In_if_singleton : forall (b : bool) (a x : string), In x (if b then [a] else []) <-> b = true /\ x = a.
Proof. intros [|] a x; simpl; intuition congruence. Qed.

(* the index of a line: exactly the reversed texts in front of an occurrence of sep *)
Lemma rev_prefixes_In : forall sep s acc rp,
  In rp (rev_prefixes sep acc s) <-> exists x y, s = x ++ sep ++ y /\ rp = rev_onto x acc.
Proof.
  induction s; intros acc rp; simpl.
  - rewrite In_if_singleton, prefixb_split. split.
    + intros [(y & E) ->]. now exists "", y.
    + intros (x & y & E & ->). destruct x; [eauto | discriminate].
  - rewrite in_app_iff, In_if_singleton, prefixb_split, IHs. split.
    + intros [[(y & E) ->] | (x & y & -> & ->)]; [now exists "", y | now exists (String a x), y].
    + intros (x & y & E & ->). destruct x as [|c x]; [left; eauto | right].
      injection E as -> ->. eauto.
Qed.

Lemma fast_match_iff : forall m sep l,
  existsb (prefixb (rev_str m)) (rev_prefixes sep "" l) = contains (m ++ sep) l.
Proof.
  intros m sep l. apply eq_true_iff_eq. rewrite existsb_exists, contains_split. split.
  - intros (rp & Hin & Hp). apply rev_prefixes_In in Hin. destruct Hin as (x & y & -> & ->).
    apply prefixb_split in Hp. destruct Hp as (z & Hz). fold (rev_str x) in Hz.
    assert (Ex : x = rev_str z ++ m).
    { rewrite <- (rev_str_involutive x), Hz, rev_str_app, rev_str_involutive. reflexivity. }
    exists (rev_str z), y. rewrite Ex. now rewrite !app_assoc_s.
  - intros (x & y & ->). exists (rev_str (x ++ m)). split.
    + apply rev_prefixes_In. exists (x ++ m), y. split; [now rewrite !app_assoc_s | reflexivity].
    + rewrite rev_str_app. apply prefixb_app.
Qed.

Lemma filter_map_index : forall (p : iline -> bool) lines,
  map il_line (filter p (map index_line lines)) = filter (fun l => p (index_line l)) lines.
Proof.
  induction lines; [reflexivity |]. simpl. destruct (p (index_line a)); simpl; now rewrite IHlines.
Qed.

(* sel is il_colon with sep ": ", or il_equal with sep " = " *)
Lemma fast_matching_same : forall sel sep m lines,
  (forall l, sel (index_line l) = rev_prefixes sep "" l) ->
  fast_matching (rev_str m) sel (map index_line lines) = matching_lines (m ++ sep) lines.
Proof.
  intros sel sep m lines Hsel. unfold fast_matching, matching_lines. rewrite filter_map_index. f_equal.
  apply filter_ext. intros l. rewrite Hsel. apply fast_match_iff.
Qed.

Lemma fast_candidates_same : forall f lines, fast_candidates f (map index_line lines) = candidates_of f lines.
Proof.
  intros f lines. unfold fast_candidates, candidates_of, field_candidates, eq_candidates, field_marker, eq_marker.
  destruct (fs_kind f) as [|[|[|k]]]; erewrite fast_matching_same by reflexivity; now rewrite app_assoc_s.
Qed.

(* the two checks differ only in where the candidates of a field come from *)
Lemma fast_check_fields_from_same : forall fs i ils lines impl,
  (forall f, fast_candidates f ils = candidates_of f lines) ->
  fast_check_fields_from i fs ils impl = check_fields_from i fs lines impl.
Proof.
  induction fs as [|f fs IH]; intros i ils lines [|r impl] H; try reflexivity.
  cbn [fast_check_fields_from check_fields_from].
  (* the code 5000 is a unary numeral: keep it out of the terms rewritten in *)
  generalize 5000%nat. intros c. now rewrite H, (IH _ _ lines).
Qed.

(* the kernel check may use the indexed search: it returns what the plain scan returns *)
Lemma fast_check_fields_same : forall fs text impl, fast_check_fields fs text impl = check_fields fs text impl.
Proof.
  intros. apply fast_check_fields_from_same. intros f.
  rewrite candidates_prefilter. apply fast_candidates_same.
Qed.
