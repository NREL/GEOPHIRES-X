(* Proofs/ResultParserProofs.v - Model/ResultParser.v one line at a time: how the str / re primitives act on texts
   of the form blanks ++ token ++ ...; a printed scalar or equal-sign line as the client reads it; which lines a
   field matches; one printed table row split back into its figures.  What spans several lines, and the numerals,
   is in ResultParserProofs2.v. *)
From Coq Require Import String Ascii List Bool PeanoNat Lia.
From Verif Require Import Base.Flat Model.ResultParser.
Import ListNotations.
Open Scope string_scope.

(* The words of the statements in Props/C10.v about one line: what a label, a value region and a printed table row
   are required to look like. *)

Definition head_not_space (s : string) : Prop :=
  match s with "" => False | String c _ => c <> SPc end.

(* text that re.sub(r'\s\s+', '', .) leaves alone, whatever follows *)
Definition solid (core : string) : Prop := forall t, rm2_from false (core ++ t) = core ++ rm2_from false t.

(* cells of a row: (token, what follows it); separators between tokens are non-empty blanks *)
Fixpoint cells_ok (cells : list (string * string)) : bool :=
  match cells with
  | [] => true
  | (t, s) :: r =>
      ws_free t && negb (is_empty t) && all_ws s
      && (match r with [] => true | _ => negb (is_empty s) end) && cells_ok r
  end.

Definition PIPE : ascii := "|"%char.
Definition no_pipe (s : string) : bool := all_chars (fun c => negb (Ascii.eqb c PIPE)) s.
Definition unpipe_cells (cells : list (string * string)) : list (string * string) :=
  map (fun ts => (fst ts, remove_char PIPE (snd ts))) cells.

(* a printed row: what precedes the first figure, then (figure, what follows it) *)
Definition row : Type := (string * list (string * string))%type.
Definition render (r : row) : string := render_row (fst r) (snd r).
Definition row_tokens (r : row) : list string := map fst (snd r).

(* figures are blank- and bar-free and non-empty; once the bars are gone they are separated by blanks *)
Definition row_ok (r : row) : bool :=
  all_ws (remove_char PIPE (fst r)) && forallb (fun ts => no_pipe (fst ts)) (snd r)
  && cells_ok (unpipe_cells (snd r)).

(* cells of a production-profile row: like cells_ok, and nothing after the last figure *)
Fixpoint cells_end (cells : list (string * string)) : bool :=
  match cells with
  | [] => false
  | [(_, s)] => is_empty s
  | _ :: r => cells_end r
  end.

Definition prow_ok (r : row) : bool :=
  all_ws (fst r) && negb (is_empty (fst r)) && cells_ok (snd r) && cells_end (snd r).

Definition unit_text (u : option string) : string := match u with Some x => x | None => "" end.

Lemma app_assoc_s : forall a b c : string, (a ++ b) ++ c = a ++ (b ++ c).
Proof. induction a; simpl; intros; [reflexivity | now rewrite IHa]. Qed.

Lemma app_nil_r_s : forall a : string, a ++ "" = a.
Proof. induction a; simpl; [reflexivity | now rewrite IHa]. Qed.

Lemma length_app_s : forall a b : string, String.length (a ++ b) = (String.length a + String.length b)%nat.
Proof. induction a; simpl; intros; [reflexivity | now rewrite IHa]. Qed.

Lemma spaces_plus : forall a b, spaces (a + b) = spaces a ++ spaces b.
Proof. induction a; simpl; intros; [reflexivity | now rewrite IHa]. Qed.

Lemma all_chars_cons : forall p c r, all_chars p (String c r) = true <-> p c = true /\ all_chars p r = true.
Proof. intros. apply andb_true_iff. Qed.

Lemma all_ws_cons : forall c r, all_ws (String c r) = true <-> is_ws c = true /\ all_ws r = true.
Proof. intros. apply all_chars_cons. Qed.

Lemma ws_free_cons : forall c r, ws_free (String c r) = true <-> is_ws c = false /\ ws_free r = true.
Proof. intros. unfold ws_free. now rewrite all_chars_cons, negb_true_iff. Qed.

Lemma all_chars_app : forall p a b, all_chars p (a ++ b) = all_chars p a && all_chars p b.
Proof. induction a; simpl; intros; [reflexivity | rewrite IHa; now rewrite andb_assoc]. Qed.

Lemma all_chars_weaken : forall (p q : ascii -> bool) s,
  (forall c, p c = true -> q c = true) -> all_chars p s = true -> all_chars q s = true.
Proof.
  induction s; intros Hpq; [reflexivity |]. rewrite !all_chars_cons. intros [H1 H2]. auto.
Qed.

Lemma ws_free_no_char : forall d s, is_ws d = true -> ws_free s = true ->
  all_chars (fun c => negb (Ascii.eqb c d)) s = true.
Proof.
  intros d s Hd. apply all_chars_weaken. intros c Hc.
  destruct (Ascii.eqb_spec c d) as [-> |]; [now rewrite Hd in Hc | reflexivity].
Qed.

Lemma all_ws_spaces : forall n, all_ws (spaces n) = true.
Proof. induction n; simpl; [reflexivity | exact IHn]. Qed.

Lemma ws_free_head : forall t, ws_free t = true -> t <> "" -> exists c r, t = String c r /\ is_ws c = false.
Proof. intros [|c r] H Hne; [contradiction |]. apply ws_free_cons in H. exists c, r. tauto. Qed.

Lemma prefixb_app : forall p s, prefixb p (p ++ s) = true.
Proof. induction p; simpl; intros; [reflexivity | rewrite Ascii.eqb_refl; apply IHp]. Qed.

Lemma prefixb_app_same : forall x p s, prefixb (x ++ p) (x ++ s) = prefixb p s.
Proof. induction x; simpl; intros; [reflexivity | rewrite Ascii.eqb_refl; apply IHx]. Qed.

(* some blanks, then a non-blank: behind one more blank such a text does not start, because a blank stands where
   it has its first non-blank; so behind an indentation it is first found where it was put *)
Lemma prefixb_behind_blanks : forall k a m n rest, a <> SPc ->
  prefixb (spaces k ++ String a m) (spaces (S n) ++ (spaces k ++ String a m) ++ rest) = false.
Proof.
  intros k a m n rest Ha.
  rewrite <- !app_assoc_s, <- spaces_plus, Nat.add_comm, spaces_plus, !app_assoc_s, prefixb_app_same.
  simpl. now destruct (Ascii.eqb_spec a SPc).
Qed.

Lemma blanks_then_char : forall x c y, c <> SPc -> exists k a m, x ++ String c y = spaces k ++ String a m /\ a <> SPc.
Proof.
  induction x as [|b x IH]; intros c y Hc; [now exists 0%nat, c, y |].
  destruct (Ascii.eqb_spec b SPc) as [-> | Hb]; [| now exists 0%nat, b, (x ++ String c y)].
  destruct (IH c y Hc) as (k & a & m & E & Ha). exists (S k), a, m. simpl. now rewrite E.
Qed.

Lemma prefixb_split : forall p s, prefixb p s = true <-> exists y, s = p ++ y.
Proof.
  intros p s. split; [| intros (y & ->); apply prefixb_app].
  revert s. induction p as [|a p IH]; intros s H; [now exists s |].
  destruct s as [|b s]; [discriminate |]. simpl in H.
  destruct (Ascii.eqb_spec a b) as [<- |]; [| discriminate]. destruct (IH s H) as (y & ->). now exists y.
Qed.

Lemma contains_prefix : forall p s, prefixb p s = true -> contains p s = true.
Proof. intros p s H. destruct s; simpl; rewrite H; reflexivity. Qed.

Lemma contains_cons : forall p c s, contains p s = true -> contains p (String c s) = true.
Proof. intros. simpl. destruct (prefixb p (String c s)); [reflexivity | assumption]. Qed.

Lemma contains_app_l : forall p x s, contains p s = true -> contains p (x ++ s) = true.
Proof. induction x; simpl append; intros; [assumption | apply contains_cons; auto]. Qed.

Lemma contains_mid : forall p x y, contains p (x ++ p ++ y) = true.
Proof. intros. apply contains_app_l, contains_prefix, prefixb_app. Qed.

Lemma contains_split : forall p s, contains p s = true <-> exists x y, s = x ++ p ++ y.
Proof.
  intros p s. split; [| intros (x & y & ->); apply contains_mid].
  induction s as [|a s IH]; simpl; destruct (prefixb p _) eqn:E; intros H.
  - apply prefixb_split in E. destruct E as (y & E). now exists "", y.
  - discriminate.
  - apply prefixb_split in E. destruct E as (y & E). now exists "", y.
  - destruct (IH H) as (x & y & ->). now exists (String a x), y.
Qed.

Lemma contains_pattern_suffix : forall x y s, contains (x ++ y) s = true -> contains y s = true.
Proof.
  intros x y s H. apply contains_split in H. destruct H as (a & b & ->).
  rewrite app_assoc_s, <- (app_assoc_s a). apply contains_mid.
Qed.

Lemma contains_false_inv : forall p c s,
  contains p (String c s) = false -> prefixb p (String c s) = false /\ contains p s = false.
Proof. intros p c s H. simpl in H. destruct (prefixb p (String c s)); [discriminate | auto]. Qed.

Lemma contains_false_prefix : forall p s, contains p s = false -> prefixb p s = false.
Proof. intros p s H. destruct (prefixb p s) eqn:E; [| reflexivity]. apply contains_prefix in E. congruence. Qed.

Lemma contains_char_absent : forall c s, all_chars (fun x => negb (Ascii.eqb x c)) s = true -> contains (String c "") s = false.
Proof.
  induction s; [reflexivity |]. rewrite all_chars_cons, negb_true_iff. intros [H1 H2].
  simpl. rewrite Ascii.eqb_sym, H1. now apply IHs.
Qed.

Lemma replace_step : forall old new c r,
  replace_from old new 0 (String c r) =
  if prefixb old (String c r) then new ++ replace_from old new (String.length old - 1) r
  else String c (replace_from old new 0 r).
Proof. reflexivity. Qed.

Lemma replace_skip : forall old new x s,
  replace_from old new (String.length x) (x ++ s) = replace_from old new 0 s.
Proof. induction x; simpl; intros; [reflexivity | apply IHx]. Qed.

Lemma replace_no_occurrence : forall old new s, contains old s = false -> replace_from old new 0 s = s.
Proof.
  induction s; intros H; [reflexivity |].
  apply contains_false_inv in H. destruct H as [H1 H2].
  rewrite replace_step, H1. now rewrite IHs.
Qed.

Lemma replace_hit : forall a o new s,
  replace_from (String a o) new 0 (String a o ++ s) = new ++ replace_from (String a o) new 0 s.
Proof.
  intros. change (String a o ++ s) with (String a (o ++ s)). rewrite replace_step.
  change (String a (o ++ s)) with (String a o ++ s). rewrite prefixb_app.
  replace (String.length (String a o) - 1)%nat with (String.length o) by (simpl; lia).
  now rewrite replace_skip.
Qed.

Lemma replace_leading_spaces : forall k a m new n s, a <> SPc ->
  let old := spaces k ++ String a m in
  replace_from old new 0 (spaces n ++ old ++ s) = spaces n ++ new ++ replace_from old new 0 s.
Proof.
  intros k a m new n s Ha old. induction n; [subst old; destruct k; apply replace_hit |].
  change (spaces (S n) ++ old ++ s) with (String SPc (spaces n ++ old ++ s)). rewrite replace_step, IHn.
  change (String SPc (spaces n ++ old ++ s)) with (spaces (S n) ++ old ++ s).
  subst old. now rewrite prefixb_behind_blanks.
Qed.

Lemma remove_char_app : forall d a b, remove_char d (a ++ b) = remove_char d a ++ remove_char d b.
Proof. induction a; simpl; intros; [reflexivity |]. destruct (Ascii.eqb a d); rewrite IHa; reflexivity. Qed.

Lemma remove_char_absent : forall d s,
  all_chars (fun c => negb (Ascii.eqb c d)) s = true -> remove_char d s = s.
Proof.
  induction s; [reflexivity |]. rewrite all_chars_cons, negb_true_iff. intros [H1 H2].
  simpl. now rewrite H1, IHs.
Qed.

Lemma remove_nl_spaces : forall n, remove_char NLc (spaces n) = spaces n.
Proof. induction n; simpl; [reflexivity | now rewrite IHn]. Qed.

Lemma remove_char_all_ws : forall d s, all_ws s = true -> all_ws (remove_char d s) = true.
Proof.
  induction s; [reflexivity |]. rewrite all_ws_cons. intros [H1 H2].
  simpl. destruct (Ascii.eqb a d); [| apply all_ws_cons]; auto.
Qed.

Lemma is_ws_NL : is_ws NLc = true. Proof. reflexivity. Qed.

Lemma rm2_step : forall c r,
  rm2_from false (String c r) =
  if is_ws c then
    match r with
    | String d _ => if is_ws d then rm2_from true r else String c (rm2_from false r)
    | "" => String c ""
    end
  else String c (rm2_from false r).
Proof. reflexivity. Qed.

Lemma rm2_token : forall t rest, ws_free t = true -> rm2_from false (t ++ rest) = t ++ rm2_from false rest.
Proof.
  induction t; intros rest; [reflexivity |]. rewrite ws_free_cons. intros [H1 H2].
  simpl. rewrite H1. now rewrite IHt.
Qed.

Lemma rm2_run : forall w c r, all_ws w = true -> is_ws c = false ->
  rm2_from true (w ++ String c r) = String c (rm2_from false r).
Proof.
  induction w; intros c r H Hc; [simpl; now rewrite Hc |].
  apply all_ws_cons in H. destruct H as [H1 H2]. simpl. rewrite H1. now apply IHw.
Qed.

Lemma rm2_run_end : forall w, all_ws w = true -> rm2_from true w = "".
Proof.
  induction w; [reflexivity |]. rewrite all_ws_cons. intros [H1 H2]. simpl. rewrite H1. auto.
Qed.

Lemma rm2_long_run : forall a b w c r, is_ws a = true -> is_ws b = true -> all_ws w = true -> is_ws c = false ->
  rm2_from false (String a (String b (w ++ String c r))) = String c (rm2_from false r).
Proof.
  intros a b w c r Ha Hb Hw Hc. rewrite rm2_step, Ha, Hb.
  change (String b (w ++ String c r)) with (String b w ++ String c r).
  apply rm2_run; [now apply all_ws_cons | assumption].
Qed.

(* blanks in front of a non-blank: one survives, none or two and more do not *)
Lemma rm2_leading_spaces : forall n c x, is_ws c = false ->
  exists j, (n <> 1%nat -> j = 0%nat) /\
            rm2_from false (spaces n ++ String c x) = spaces j ++ rm2_from false (String c x).
Proof.
  intros [|[|n]] c x Hc.
  - now exists 0%nat.
  - exists 1%nat. split; [congruence |].
    change (rm2_from false (spaces 1 ++ String c x))
      with (if is_ws c then rm2_from true (String c x) else String SPc (rm2_from false (String c x))).
    now rewrite Hc.
  - exists 0%nat. split; [reflexivity |].
    change (spaces (S (S n)) ++ String c x) with (String SPc (String SPc (spaces n ++ String c x))).
    rewrite rm2_long_run by auto using all_ws_spaces. now rewrite rm2_step, Hc.
Qed.

Lemma rm2_all_ws : forall b w, all_ws w = true -> all_ws (rm2_from b w) = true.
Proof.
  intros b w. revert b. induction w; intros b H; [reflexivity |].
  pose proof H as H'. apply all_ws_cons in H'. destruct H' as [H1 H2].
  simpl. rewrite H1. destruct b; [auto |].
  destruct w as [|d w]; [now apply all_ws_cons |].
  apply all_ws_cons in H2. destruct H2 as [H3 H4]. rewrite H3.
  apply IHw, all_ws_cons. auto.
Qed.

Lemma rstrip_ws : forall w, all_ws w = true -> rstrip w = "".
Proof.
  induction w; intros H; [reflexivity |]. apply all_ws_cons in H. destruct H as [H1 H2].
  simpl. rewrite (IHw H2), H1. reflexivity.
Qed.

Lemma rstrip_app_ws : forall x w, all_ws w = true -> rstrip (x ++ w) = rstrip x.
Proof. induction x; intros w H; simpl; [now apply rstrip_ws | now rewrite IHx]. Qed.

Lemma rstrip_token : forall t, ws_free t = true -> rstrip t = t.
Proof.
  induction t; intros H; [reflexivity |]. apply ws_free_cons in H. destruct H as [H1 H2].
  simpl. rewrite (IHt H2), H1. reflexivity.
Qed.

Lemma rstrip_app_token : forall x t, ws_free t = true -> t <> "" -> rstrip (x ++ t) = x ++ t.
Proof.
  induction x; intros t H Hne; simpl; [now apply rstrip_token |].
  rewrite (IHx t H Hne). destruct (x ++ t) eqn:E; [| simpl; now rewrite andb_false_r].
  destruct x; [contradiction | discriminate].
Qed.

Lemma lstrip_token_head : forall c r, is_ws c = false -> lstrip (String c r) = String c r.
Proof. intros. simpl. now rewrite H. Qed.

Lemma lstrip_skip : forall w s, all_ws w = true -> lstrip (w ++ s) = lstrip s.
Proof.
  induction w; intros s H; [reflexivity |]. apply all_ws_cons in H. destruct H as [H1 H2].
  simpl. rewrite H1. auto.
Qed.

Lemma strip_core : forall w c r t, all_ws w = true -> is_ws c = false -> rstrip (String c r) = String c r ->
  all_ws t = true -> strip (w ++ String c r ++ t) = String c r.
Proof.
  intros w c r t Hw Hc Hr Ht. unfold strip. rewrite lstrip_skip by assumption.
  change (String c r ++ t) with (String c (r ++ t)). rewrite lstrip_token_head by assumption.
  change (String c (r ++ t)) with (String c r ++ t). now rewrite rstrip_app_ws.
Qed.

Lemma strip_ws_free : forall s, ws_free s = true -> strip s = s.
Proof.
  intros [|c r] H; [reflexivity |]. unfold strip.
  rewrite lstrip_token_head by (now apply ws_free_cons in H). now apply rstrip_token.
Qed.

Lemma split_char_none : forall d s,
  all_chars (fun c => negb (Ascii.eqb c d)) s = true -> split_char d s = [s].
Proof.
  induction s; [reflexivity |]. rewrite all_chars_cons, negb_true_iff. intros [H1 H2].
  simpl. now rewrite H1, IHs.
Qed.

Lemma split_char_app : forall d a b,
  all_chars (fun c => negb (Ascii.eqb c d)) a = true ->
  split_char d (a ++ String d b) = a :: split_char d b.
Proof.
  induction a; intros b; [simpl; now rewrite Ascii.eqb_refl |].
  rewrite all_chars_cons, negb_true_iff. intros [H1 H2]. simpl. now rewrite H1, IHa.
Qed.

Lemma split_step : forall sep c r,
  split_from sep 0 (String c r) =
  if prefixb sep (String c r) then "" :: split_from sep (String.length sep - 1) r
  else cons_head c (split_from sep 0 r).
Proof. reflexivity. Qed.

Lemma split_skip : forall sep x s, split_from sep (String.length x) (x ++ s) = split_from sep 0 s.
Proof. induction x; simpl; intros; [reflexivity | apply IHx]. Qed.

Lemma split_no_occurrence : forall sep s, contains sep s = false -> split_from sep 0 s = [s].
Proof.
  induction s; intros H; [reflexivity |].
  apply contains_false_inv in H. destruct H as [H1 H2].
  rewrite split_step, H1, (IHs H2). reflexivity.
Qed.

Lemma split_hit : forall a o s,
  split_from (String a o) 0 (String a o ++ s) = "" :: split_from (String a o) 0 s.
Proof.
  intros. change (String a o ++ s) with (String a (o ++ s)). rewrite split_step.
  change (String a (o ++ s)) with (String a o ++ s). rewrite prefixb_app.
  replace (String.length (String a o) - 1)%nat with (String.length o) by (simpl; lia).
  now rewrite split_skip.
Qed.

Lemma split_leading_spaces : forall k a m n rest, a <> SPc ->
  let sep := spaces k ++ String a m in
  split_from sep 0 (spaces n ++ sep ++ rest) = spaces n :: split_from sep 0 rest.
Proof.
  intros k a m n rest Ha sep. induction n; [subst sep; destruct k; apply split_hit |].
  change (spaces (S n) ++ sep ++ rest) with (String SPc (spaces n ++ sep ++ rest)). rewrite split_step, IHn.
  change (String SPc (spaces n ++ sep ++ rest)) with (spaces (S n) ++ sep ++ rest).
  subst sep. now rewrite prefixb_behind_blanks.
Qed.

Lemma split_ws_step : forall c r,
  split_ws (String c r) =
  if is_ws c then split_ws r
  else match r with
       | "" => [String c ""]
       | String d _ => if is_ws d then String c "" :: split_ws r else cons_head c (split_ws r)
       end.
Proof. reflexivity. Qed.

Lemma split_ws_skip : forall w s, all_ws w = true -> split_ws (w ++ s) = split_ws s.
Proof.
  induction w; intros s H; [reflexivity |]. apply all_ws_cons in H. destruct H as [H1 H2].
  simpl. rewrite H1. auto.
Qed.

Lemma split_ws_all_ws : forall w, all_ws w = true -> split_ws w = [].
Proof. intros. rewrite <- (app_nil_r_s w). now rewrite split_ws_skip. Qed.

Definition breaks (rest : string) : Prop :=
  match rest with "" => True | String d _ => is_ws d = true end.

Lemma split_ws_token : forall t rest, ws_free t = true -> t <> "" -> breaks rest ->
  split_ws (t ++ rest) = t :: split_ws rest.
Proof.
  induction t; intros rest H Hne Hb; [contradiction |].
  apply ws_free_cons in H. destruct H as [H1 H2].
  change (String a t ++ rest) with (String a (t ++ rest)). rewrite split_ws_step, H1.
  destruct t as [|b t'].
  - simpl append. destruct rest as [|d rest']; [reflexivity |]. simpl in Hb. now rewrite Hb.
  - rewrite IHt by (auto; discriminate). apply ws_free_cons in H2. destruct H2 as [Hb' _].
    change (String b t' ++ rest) with (String b (t' ++ rest)). cbv iota. now rewrite Hb'.
Qed.

Lemma resplit1_step : forall c r,
  resplit1 (String c r) =
  if is_ws c then
    match r with
    | String d _ => if is_ws d then resplit1 r else "" :: resplit1 r
    | "" => "" :: resplit1 r
    end
  else cons_head c (resplit1 r).
Proof. reflexivity. Qed.

Lemma resplit1_nonempty : forall s, exists h t, resplit1 s = h :: t.
Proof.
  induction s; [simpl; eauto |]. rewrite resplit1_step. destruct IHs as (h & t & E).
  destruct (is_ws a).
  - destruct s; [eauto |]. destruct (is_ws a0); eauto.
  - rewrite E. simpl. eauto.
Qed.

Lemma resplit1_blanks : forall w c r, all_ws w = true -> w <> "" -> is_ws c = false ->
  resplit1 (w ++ String c r) = "" :: resplit1 (String c r).
Proof.
  induction w; intros c r H Hne Hc; [contradiction |].
  apply all_ws_cons in H. destruct H as [H1 H2].
  change (String a w ++ String c r) with (String a (w ++ String c r)). rewrite resplit1_step, H1.
  destruct w as [|b w'].
  - change ("" ++ String c r) with (String c r). cbv iota. now rewrite Hc.
  - pose proof H2 as Hb. apply all_ws_cons in Hb. destruct Hb as [Hb _].
    change (String b w' ++ String c r) with (String b (w' ++ String c r)). cbv iota. rewrite Hb.
    change (String b (w' ++ String c r)) with (String b w' ++ String c r).
    apply IHw; [assumption | discriminate | assumption].
Qed.

Lemma resplit1_token : forall t rest, ws_free t = true ->
  resplit1 (t ++ rest) = (t ++ hd "" (resplit1 rest)) :: tl (resplit1 rest).
Proof.
  induction t; intros rest H.
  - simpl. destruct (resplit1_nonempty rest) as (h & tl0 & ->). reflexivity.
  - apply ws_free_cons in H. destruct H as [H1 H2].
    change (String a t ++ rest) with (String a (t ++ rest)). rewrite resplit1_step, H1, (IHt rest H2). reflexivity.
Qed.

Lemma cut_label : forall name indent pad rest,
  contains (name ++ ":") (spaces pad ++ rest) = false ->
  replace_all (name ++ ":") "" (spaces indent ++ name ++ ":" ++ spaces pad ++ rest)
  = spaces (indent + pad) ++ rest.
Proof.
  intros name indent pad rest Hc. unfold replace_all. rewrite <- (app_assoc_s name).
  destruct (blanks_then_char name ":"%char "") as (k & a & m & E & Ha); [discriminate |]. rewrite E in *.
  rewrite replace_leading_spaces, replace_no_occurrence by assumption.
  now rewrite spaces_plus, app_assoc_s.
Qed.

Lemma solid_token : forall t, ws_free t = true -> solid t.
Proof. intros t H x. now apply rm2_token. Qed.

Lemma solid_join : forall a b, ws_free a = true -> ws_free b = true -> b <> "" -> solid (a ++ " " ++ b).
Proof.
  intros a b Ha Hb Hne t.
  destruct (ws_free_head b Hb Hne) as (c & r & -> & Hc).
  rewrite !app_assoc_s. rewrite rm2_token by assumption. f_equal.
  change (" " ++ String c r ++ t) with (String SPc (String c (r ++ t))).
  rewrite rm2_step. change (is_ws SPc) with true. rewrite Hc.
  change (String c (r ++ t)) with (String c r ++ t). rewrite rm2_token by assumption. reflexivity.
Qed.

(* the text _get_result_field goes on with: the value region of a rendered line, label and padding gone (but for
   a single blank, if that was all there was in front); of what follows the value only single blanks can survive *)
Lemma field_text : forall name indent pad core trail,
  contains (name ++ ":") (spaces pad ++ core ++ trail) = false ->
  solid core -> (exists c r, core = String c r /\ is_ws c = false) ->
  all_chars (fun c => negb (Ascii.eqb c NLc)) core = true ->
  exists j, (indent + pad <> 1 -> j = 0)%nat /\
    rm2 (remove_char NLc (replace_all (name ++ ":") ""
           (spaces indent ++ name ++ ":" ++ spaces pad ++ core ++ trail)))
    = spaces j ++ core ++ rm2_from false (remove_char NLc trail).
Proof.
  intros name indent pad core trail Hc Hs (c & r & -> & Hcw) Hnl.
  rewrite cut_label by assumption.
  rewrite !remove_char_app, remove_nl_spaces, (remove_char_absent _ _ Hnl).
  unfold rm2. change (String c r ++ remove_char NLc trail) with (String c (r ++ remove_char NLc trail)).
  destruct (rm2_leading_spaces (indent + pad) c (r ++ remove_char NLc trail) Hcw) as (j & Hj & ->).
  exists j. split; [exact Hj |]. f_equal. apply Hs.
Qed.

(* a value region the client reads back as it stands: left alone by re.sub, non-blank at both ends, on one line *)
Definition value_text (core : string) : Prop :=
  solid core /\ (exists c r, core = String c r /\ is_ws c = false) /\ rstrip core = core
  /\ all_chars (fun c => negb (Ascii.eqb c NLc)) core = true.

Lemma value_text_token : forall t, ws_free t = true -> t <> "" -> value_text t.
Proof.
  intros t H Hne. repeat split.
  - now apply solid_token.
  - now apply ws_free_head.
  - now apply rstrip_token.
  - now apply ws_free_no_char.
Qed.

Lemma value_text_join : forall a b, ws_free a = true -> a <> "" -> ws_free b = true -> b <> "" ->
  value_text (a ++ " " ++ b).
Proof.
  intros a b Ha Hane Hb Hbne. repeat split.
  - now apply solid_join.
  - destruct (ws_free_head a Ha Hane) as (c & r & -> & Hc). now exists c, (r ++ " " ++ b).
  - rewrite <- app_assoc_s. now apply rstrip_app_token.
  - rewrite !all_chars_app, (ws_free_no_char NLc a), (ws_free_no_char NLc b) by auto. reflexivity.
Qed.

(* the text the client splits at single blanks *)
Lemma value_region : forall name indent pad core trail,
  contains (name ++ ":") (spaces pad ++ core ++ trail) = false ->
  value_text core -> all_ws trail = true ->
  strip (rm2 (remove_char NLc (replace_all (name ++ ":") ""
           (spaces indent ++ name ++ ":" ++ spaces pad ++ core ++ trail)))) = core.
Proof.
  intros name indent pad core trail Hc (Hs & Hh & Hr & Hnl) Ht.
  destruct (field_text name indent pad core trail Hc Hs Hh Hnl) as (j & _ & ->).
  destruct Hh as (c & r & -> & Hcw).
  apply strip_core; auto using all_ws_spaces. apply rm2_all_ws, remove_char_all_ws, Ht.
Qed.

Lemma split_token_unit : forall a b, ws_free a = true -> ws_free b = true ->
  split_char SPc (a ++ " " ++ b) = [a; b].
Proof.
  intros a b Ha Hb. change (a ++ " " ++ b) with (a ++ String SPc b).
  now rewrite split_char_app, split_char_none by (apply ws_free_no_char; auto).
Qed.

Lemma eq_field_read : forall name v n,
  all_chars (fun c => negb (Ascii.eqb c NLc)) v = true ->
  contains (eq_marker name) (v ++ NL) = false ->
  eq_of_line (eq_marker name) (spaces n ++ eq_marker name ++ v ++ NL) = MR (MStr v) None.
Proof.
  intros name v n Hv Hc. unfold eq_of_line, split_str.
  destruct (blanks_then_char ("  " ++ name ++ " ") "="%char " ") as (k & a & m & E & Ha); [discriminate |].
  replace (eq_marker name) with (spaces k ++ String a m) in *
    by (rewrite <- E; unfold eq_marker; now rewrite !app_assoc_s).
  rewrite split_leading_spaces, split_no_occurrence by assumption. simpl nth.
  rewrite remove_char_app, (remove_char_absent _ _ Hv). simpl. now rewrite app_nil_r_s.
Qed.

Lemma eq_marker_finds_line : forall name v n,
  contains (eq_marker name) (spaces n ++ eq_marker name ++ v) = true.
Proof. intros. apply contains_mid. Qed.

Lemma mem_str_In : forall x l, mem_str x l = true <-> In x l.
Proof.
  induction l; simpl; [split; [discriminate | tauto] |].
  rewrite orb_true_iff, IHl, String.eqb_eq. split; intros [H | H]; auto.
Qed.

Lemma dedup_In : forall x l, In x (dedup l) <-> In x l.
Proof.
  induction l; simpl; [tauto |].
  destruct (mem_str a l) eqn:E.
  - rewrite IHl. split; [auto |]. intros [-> | H]; [now apply mem_str_In | assumption].
  - simpl. rewrite IHl. tauto.
Qed.

Lemma matching_lines_In : forall m l lines,
  In l (matching_lines m lines) <-> In l lines /\ contains m l = true.
Proof. intros. unfold matching_lines. rewrite dedup_In, filter_In. tauto. Qed.

(* if every matching line reads as r, so does the line set.pop() returns, whichever it is *)
Lemma get_result_field_uniform : forall name is_str indent lines r,
  (forall l, In l lines -> contains (field_marker indent name) l = true -> field_of_line name is_str l = r) ->
  forall k x, get_result_field k name is_str indent lines = Some x -> x = r.
Proof.
  intros name is_str indent lines r H k x Hk. unfold get_result_field, field_candidates in Hk.
  apply nth_error_In in Hk. apply in_map_iff in Hk. destruct Hk as (l & <- & Hl).
  apply matching_lines_In in Hl. destruct Hl. auto.
Qed.

Lemma filter_prefilter : forall (A : Type) (f p : A -> bool) l,
  (forall x, f x = true -> p x = true) -> filter f (filter p l) = filter f l.
Proof.
  induction l; intros H; [reflexivity |]. simpl.
  destruct (p a) eqn:Ep; simpl.
  - destruct (f a); now rewrite IHl.
  - destruct (f a) eqn:Ef; [rewrite (H a Ef) in Ep; discriminate | now apply IHl].
Qed.

Lemma field_marker_relevant : forall indent name l,
  contains (field_marker indent name) l = true -> relevant_line l = true.
Proof.
  intros indent name l H. unfold relevant_line, field_marker in *.
  rewrite <- app_assoc_s in H. apply contains_pattern_suffix in H. now rewrite H.
Qed.

Lemma eq_marker_relevant : forall name l, contains (eq_marker name) l = true -> relevant_line l = true.
Proof.
  intros name l H. unfold relevant_line, eq_marker in *.
  rewrite <- app_assoc_s in H. apply contains_pattern_suffix in H. rewrite H. apply orb_true_r.
Qed.

Lemma candidates_prefilter : forall f lines,
  candidates_of f (filter relevant_line lines) = candidates_of f lines.
Proof.
  intros f lines. unfold candidates_of, field_candidates, eq_candidates, matching_lines.
  destruct (fs_kind f) as [|[|[|k]]]; rewrite filter_prefilter; try reflexivity;
    intros x Hx; first [exact (field_marker_relevant _ _ _ Hx) | exact (eq_marker_relevant _ _ Hx)].
Qed.

Lemma is_empty_false : forall s, negb (is_empty s) = true <-> s <> "".
Proof. intros [|c r]; simpl; split; congruence. Qed.

Lemma cells_ok_cons : forall t s r, cells_ok ((t, s) :: r) = true <->
  ws_free t = true /\ t <> "" /\ all_ws s = true /\ (r <> [] -> s <> "") /\ cells_ok r = true.
Proof.
  intros. simpl. rewrite !andb_true_iff, is_empty_false.
  assert (E : (match r with [] => true | _ => negb (is_empty s) end) = true <-> (r <> [] -> s <> "")).
  { destruct r; [split; congruence |]. rewrite is_empty_false. split; [auto | intros H; apply H; discriminate]. }
  rewrite E. tauto.
Qed.

Lemma breaks_render : forall sep r, all_ws sep = true -> (r <> [] -> sep <> "") -> breaks (render_row sep r).
Proof.
  intros [|c sep] r Hs Hne.
  - destruct r as [|[t s] r]; [exact I | now destruct Hne].
  - apply all_ws_cons in Hs. destruct r as [|[t s] r]; apply Hs.
Qed.

Lemma split_ws_row : forall cells lead, all_ws lead = true -> cells_ok cells = true ->
  split_ws (render_row lead cells) = map fst cells.
Proof.
  induction cells as [|[t s] r IH]; intros lead Hl Hc; [now apply split_ws_all_ws |].
  apply cells_ok_cons in Hc. destruct Hc as (Ht & Htn & Hs & Hsn & Hr).
  simpl render_row. rewrite split_ws_skip, split_ws_token by auto using breaks_render.
  simpl. now rewrite IH.
Qed.

Lemma cells_first_token : forall cells, cells_ok cells = true -> cells <> [] ->
  existsb (fun t => negb (is_empty t)) (map fst cells) = true.
Proof.
  intros [|[t s] r] H Hne; [contradiction |]. apply cells_ok_cons in H. destruct H as (_ & Ht & _).
  simpl. apply is_empty_false in Ht. now rewrite Ht.
Qed.

Lemma unpipe_render : forall cells lead,
  forallb (fun ts => no_pipe (fst ts)) cells = true ->
  remove_char PIPE (render_row lead cells) = render_row (remove_char PIPE lead) (unpipe_cells cells).
Proof.
  induction cells as [|[t s] r IH]; intros lead H; [reflexivity |].
  simpl in H. apply andb_true_iff in H. destruct H as [H1 H2].
  simpl. rewrite !remove_char_app, (remove_char_absent _ _ H1). now rewrite IH.
Qed.

Lemma map_fst_unpipe : forall cells, map fst (unpipe_cells cells) = map fst cells.
Proof. intros. unfold unpipe_cells. rewrite map_map. reflexivity. Qed.

Lemma row_split : forall r, row_ok r = true ->
  split_ws (remove_char PIPE (render r)) = row_tokens r.
Proof.
  intros [lead cells] H. unfold row_ok in H. simpl in H.
  apply andb_true_iff in H. destruct H as [H H3]. apply andb_true_iff in H. destruct H as [H1 H2].
  unfold render, row_tokens. simpl. rewrite unpipe_render by assumption.
  rewrite split_ws_row by assumption. apply map_fst_unpipe.
Qed.

Lemma resplit1_row : forall cells lead,
  all_ws lead = true -> lead <> "" -> cells_ok cells = true -> cells_end cells = true ->
  resplit1 (render_row lead cells) = "" :: map fst cells.
Proof.
  induction cells as [|[t s] r IH]; intros lead Hl Hne Hc He; [discriminate |].
  apply cells_ok_cons in Hc. destruct Hc as (Ht & Htn & Hs & Hsn & Hr).
  destruct (ws_free_head t Ht Htn) as (c & r0 & -> & Hcw).
  simpl render_row. change (String c r0 ++ render_row s r) with (String c (r0 ++ render_row s r)).
  rewrite resplit1_blanks by assumption. f_equal.
  change (String c (r0 ++ render_row s r)) with (String c r0 ++ render_row s r).
  rewrite resplit1_token by assumption.
  destruct r as [|p r'].
  - simpl in He. destruct s; [| discriminate]. simpl. now rewrite app_nil_r_s.
  - rewrite IH by (auto; apply Hsn; discriminate). simpl. now rewrite app_nil_r_s.
Qed.

Lemma no_foreign_match_table_labels : forall fields labels others,
  no_foreign_match_table fields labels others = true ->
  forall f l, In f fields -> In l labels ->
  contains (marker_of f) (label_prefix l) = true -> own_label f l = true.
Proof.
  intros fields labels others H f l Hf Hl Hc. unfold no_foreign_match_table in H.
  rewrite forallb_forall in H. specialize (H f Hf). apply andb_true_iff in H. destruct H as [H _].
  rewrite forallb_forall in H. specialize (H l Hl). rewrite Hc in H. exact H.
Qed.

Lemma no_foreign_match_table_others : forall fields labels others,
  no_foreign_match_table fields labels others = true ->
  forall f o, In f fields -> In o others -> contains (marker_of f) o = false.
Proof.
  intros fields labels others H f o Hf Ho. unfold no_foreign_match_table in H.
  rewrite forallb_forall in H. specialize (H f Hf). apply andb_true_iff in H. destruct H as [_ H].
  rewrite forallb_forall in H. specialize (H o Ho). now apply negb_true_iff in H.
Qed.
