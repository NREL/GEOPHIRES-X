(* Proofs/ResultParserProofs2.v - Model/ResultParser.v over several lines: the rows of a table, the block of a
   profile (_get_profile_lines), header reconstruction, the carbon view, as_csv, f.readlines(); and _parse_number
   against printed numerals.  The single line is in ResultParserProofs.v. *)
From Coq Require Import String Ascii List ZArith Bool Lia.
From Verif Require Import Base.Flat Model.ResultParser Proofs.ResultParserProofs.
Import ListNotations.
Open Scope string_scope.

(* The words of the statements in Props/C10.v about several lines and about numerals. *)

(* sep does not start inside [pre] when [pre ++ sep ++ rest] is scanned from the left *)
Definition first_at (sep pre rest : string) : Prop :=
  forall a b, pre = a ++ b -> b <> "" -> prefixb sep (b ++ sep ++ rest) = false.

(* text of a block from its lines: l1 \n l2 \n ... \n ln *)
Fixpoint join_lines (l : string) (rest : list string) : string :=
  match rest with [] => l | r :: rs => l ++ NL ++ join_lines r rs end.

Definition sign_of (neg : bool) : Z := if neg then (-1)%Z else 1%Z.

Lemma skipn_exact : forall (A : Type) (pre l : list A) n, List.length pre = n -> skipn n (pre ++ l) = l.
Proof. intros A pre l n <-. induction pre; simpl; auto. Qed.

Lemma max_len_const : forall ls m, ls <> [] -> (forall l, In l ls -> List.length l = m) -> max_len ls = m.
Proof.
  induction ls as [|a ls IH]; intros m Hne H; [contradiction |].
  simpl. rewrite (H a) by (left; reflexivity).
  destruct ls as [|b ls']; [simpl; lia |].
  rewrite (IH m); [lia | discriminate | intros; apply H; now right].
Qed.

Lemma pad_row_id : forall k n l, List.length l = n -> pad_row k n l = l.
Proof. intros k n l <-. destruct k; simpl; [reflexivity | now rewrite Nat.ltb_irrefl]. Qed.

Lemma filter_all : forall (A : Type) (f : A -> bool) l, (forall x, In x l -> f x = true) -> filter f l = l.
Proof. induction l; simpl; intros H; [reflexivity |]. rewrite H by auto. rewrite IHl; auto. Qed.

Lemma existsb_map : forall (A B : Type) (f : B -> bool) (g : A -> B) l, existsb f (map g l) = existsb (fun x => f (g x)) l.
Proof. induction l; simpl; [reflexivity | now rewrite IHl]. Qed.

(* the add-on style extraction on lines whose token rows all have m entries, a non-empty one among them: nothing is
   padded and nothing is dropped *)
Lemma addons_rows_uniform : forall lines sp m,
  map (fun l => split_ws (remove_char "|" l)) (skipn 5 lines) = sp -> sp <> [] ->
  (forall x, In x sp -> List.length x = m /\ existsb (fun t => negb (is_empty t)) x = true) ->
  addons_rows lines = Some (map (map parse_number) sp).
Proof.
  intros lines sp m <- Hne H. unfold addons_rows.
  destruct (map _ (skipn 5 lines)) eqn:E; [contradiction |]. rewrite <- E in *.
  rewrite (max_len_const _ m) by (try assumption; intros; now apply H).
  rewrite (map_ext_in _ (fun l => l)), map_id by (intros; apply pad_row_id; now apply H).
  now rewrite filter_all by (intros; now apply H).
Qed.

Lemma row_tokens_ok : forall (r : row) m, row_ok r = true -> List.length (snd r) = m -> (1 <= m)%nat ->
  List.length (row_tokens r) = m /\ existsb (fun t => negb (is_empty t)) (row_tokens r) = true.
Proof.
  intros r m Hok Hl Hm. unfold row_tokens. rewrite map_length. split; [assumption |].
  unfold row_ok in Hok. apply andb_true_iff in Hok. destruct Hok as [_ Hc].
  rewrite <- map_fst_unpipe. apply cells_first_token; [assumption |].
  destruct (snd r); [simpl in Hl; lia | discriminate].
Qed.

Lemma split_first : forall sep pre rest, sep <> "" -> first_at sep pre rest ->
  split_from sep 0 (pre ++ sep ++ rest) = pre :: split_from sep 0 rest.
Proof.
  intros [|a o] pre rest Hne; [contradiction |]. induction pre as [|c pre IH]; intros H; [apply split_hit |].
  change (String c pre ++ String a o ++ rest) with (String c (pre ++ String a o ++ rest)). rewrite split_step.
  change (String c (pre ++ String a o ++ rest)) with (String c pre ++ String a o ++ rest).
  rewrite (H "" (String c pre)) by (auto; discriminate).
  rewrite IH; [reflexivity |]. intros x y E Hy. apply (H (String c x) y); [simpl; now rewrite E | assumption].
Qed.

Lemma set_nth_length : forall n v l l', set_nth n v l = Some l' -> List.length l' = List.length l.
Proof.
  induction n; intros v l l' H; destruct l; simpl in H; try discriminate.
  - now inversion H.
  - destruct (set_nth n v l) eqn:E; [| discriminate]. inversion H. simpl. f_equal. eauto.
Qed.

Lemma header_col_length : forall idx idxc col hs hs', header_col idx idxc col hs = Some hs' ->
  List.length hs' = List.length hs.
Proof.
  intros idx idxc col hs hs' H. unfold header_col in H.
  destruct (nth_error hs 0); [| discriminate]. destruct (nth_error hs 1); [| discriminate].
  match type of H with match nth_error hs ?j with _ => _ end = _ => destruct (nth_error hs j); [| discriminate] end.
  eapply set_nth_length; eauto.
Qed.

Lemma header_cols_length : forall cols idx idxc hs hs', header_cols idx idxc cols hs = Some hs' ->
  List.length hs' = List.length hs.
Proof.
  induction cols; intros idx idxc hs hs' H; simpl in H; [now inversion H |].
  destruct (header_col idx idxc a hs) eqn:E; [| discriminate].
  rewrite (IHcols _ _ _ _ H). eapply header_col_length; eauto.
Qed.

Lemma header_lines_length : forall hls idx hs hs', (0 < idx)%nat -> header_lines idx hls hs = Some hs' ->
  List.length hs' = List.length hs.
Proof.
  induction hls; intros idx hs hs' Hi H; simpl in H; [now inversion H |].
  destruct idx; [lia |].
  destruct (header_cols (S idx) 0 (tl (resplit2 a)) hs) eqn:E; [| discriminate].
  rewrite (IHhls _ _ _ (Nat.lt_0_succ _) H). eapply header_cols_length; eauto.
Qed.

Lemma pick_cols_spec : forall idx row vs, pick_cols idx row = Some vs -> vs = map (fun i => nth i row MNone) idx.
Proof.
  induction idx; intros row vs H; simpl in H; [now inversion H |].
  destruct (nth_error row a) eqn:E; [| discriminate]. destruct (pick_cols idx row) eqn:E2; [| discriminate].
  inversion H. simpl. f_equal; [symmetry; now apply nth_error_nth | now apply IHidx].
Qed.

Lemma pick_rows_spec : forall idx rows r, pick_rows idx rows = Some r ->
  r = map (fun row => map (fun i => nth i row MNone) idx) rows.
Proof.
  induction rows; intros r H; simpl in H; [now inversion H |].
  destruct (pick_cols idx a) eqn:E; [| discriminate]. destruct (pick_rows idx rows) eqn:E2; [| discriminate].
  inversion H. simpl. f_equal; [now apply pick_cols_spec | now apply IHrows].
Qed.

Lemma pick_cols_defined : forall idx row, (forall i, In i idx -> (i < List.length row)%nat) -> exists vs, pick_cols idx row = Some vs.
Proof.
  induction idx; intros row H; simpl; [eauto |].
  destruct (nth_error row a) eqn:E; [| apply nth_error_None in E; specialize (H a (or_introl eq_refl)); lia].
  destruct (IHidx row) as [vs ->]; [intros; apply H; now right | eauto].
Qed.

Lemma pick_rows_defined : forall idx rows,
  (forall row, In row rows -> forall i, In i idx -> (i < List.length row)%nat) -> exists r, pick_rows idx rows = Some r.
Proof.
  induction rows; intros H; simpl; [eauto |].
  destruct (pick_cols_defined idx a) as [vs ->]; [apply H; now left |].
  destruct IHrows as [r ->]; [intros; eapply H; eauto; now right | eauto].
Qed.

Lemma csv_column_cons : forall (V : Type) cat nm un i (r : list V) rs,
  csv_column cat nm un i (r :: rs) =
  match nth_error r 0, nth_error r (S i), csv_column cat nm un i rs with
  | Some y, Some v, Some rest => Some (CSV cat nm (Some y) v un :: rest)
  | _, _, _ => None
  end.
Proof. reflexivity. Qed.

Lemma csv_columns_cons : forall (V : Type) cat i h hs (rows : list (list V)),
  csv_columns cat i (h :: hs) rows =
  let (nm, un) := header_name_unit h in
  match csv_column cat nm un i rows, csv_columns cat (S i) hs rows with
  | Some a, Some b => Some (a ++ b)%list
  | _, _ => None
  end.
Proof. reflexivity. Qed.

Lemma csv_column_spec : forall (V : Type) cat nm un i (rows : list (list V)) l,
  csv_column cat nm un i rows = Some l ->
  List.length l = List.length rows /\
  forall j r, nth_error rows j = Some r ->
    exists y v, nth_error r 0 = Some y /\ nth_error r (S i) = Some v /\
                nth_error l j = Some (CSV cat nm (Some y) v un).
Proof.
  induction rows as [|r0 rows IH]; intros l H.
  - simpl in H. inversion H. split; [reflexivity |]. intros j r Hj. destruct j; simpl in Hj; discriminate.
  - rewrite csv_column_cons in H. destruct (nth_error r0 0) as [y|] eqn:Ey; destruct (nth_error r0 (S i)) as [v|] eqn:Ev;
      destruct (csv_column cat nm un i rows) as [rest|] eqn:Er; simpl in H; try discriminate.
    injection H as <-. destruct (IH rest eq_refl) as [Hl Hc]. split; [simpl; now rewrite Hl |].
    intros [|j] r Hj; simpl in Hj.
    + inversion Hj; subst r. exists y, v. auto.
    + apply Hc in Hj. exact Hj.
Qed.

Lemma csv_column_defined : forall (V : Type) cat nm un i (rows : list (list V)),
  (forall r, In r rows -> (S i < List.length r)%nat) -> exists l, csv_column cat nm un i rows = Some l.
Proof.
  induction rows as [|r0 rows IH]; intros H; [simpl; eauto |].
  rewrite csv_column_cons. assert (H0 : (S i < List.length r0)%nat) by (apply H; now left).
  destruct (nth_error r0 0) eqn:E0; [| apply nth_error_None in E0; lia].
  destruct (nth_error r0 (S i)) eqn:E1; [| apply nth_error_None in E1; lia].
  destruct IH as [l ->]; [intros; apply H; now right | eauto].
Qed.

Lemma csv_columns_spec : forall (V : Type) cat (hs : list string) i (rows : list (list V)) l,
  csv_columns cat i hs rows = Some l ->
  List.length l = (List.length hs * List.length rows)%nat /\
  forall k h, nth_error hs k = Some h -> forall j r, nth_error rows j = Some r ->
    exists y v, nth_error r 0 = Some y /\ nth_error r (S (i + k)) = Some v /\
                nth_error l (k * List.length rows + j)
                = Some (CSV cat (fst (header_name_unit h)) (Some y) v (snd (header_name_unit h))).
Proof.
  induction hs as [|h0 hs IH]; intros i rows l H.
  - simpl in H. inversion H. split; [reflexivity |]. intros k h Hk. destruct k; simpl in Hk; discriminate.
  - rewrite csv_columns_cons in H. destruct (header_name_unit h0) as [nm un] eqn:Eh.
    destruct (csv_column cat nm un i rows) as [a|] eqn:Ea; destruct (csv_columns cat (S i) hs rows) as [b|] eqn:Eb;
      simpl in H; try discriminate.
    injection H as <-. apply csv_column_spec in Ea. destruct Ea as [La Ca].
    destruct (IH _ _ _ Eb) as [Lb Cb]. split; [rewrite app_length, La, Lb; simpl; lia |].
    intros [|k] h Hk j r Hj; simpl in Hk.
    + inversion Hk; subst h. rewrite Eh. simpl. rewrite Nat.add_0_r.
      destruct (Ca j r Hj) as (y & v & Hy & Hv & Hn). exists y, v. repeat split; auto.
      rewrite nth_error_app1; [assumption |]. rewrite La. apply nth_error_Some. congruence.
    + destruct (Cb k h Hk j r Hj) as (y & v & Hy & Hv & Hn). exists y, v. repeat split; auto.
      * now replace (S (i + S k)) with (S (S i + k)) by lia.
      * rewrite nth_error_app2 by (rewrite La; simpl; lia).
        rewrite La. replace (S k * List.length rows + j - List.length rows)%nat with (k * List.length rows + j)%nat
          by (simpl; lia). assumption.
Qed.

Lemma csv_columns_defined : forall (V : Type) cat (hs : list string) i (rows : list (list V)),
  (forall r, In r rows -> (i + List.length hs < List.length r)%nat) -> exists l, csv_columns cat i hs rows = Some l.
Proof.
  induction hs as [|h0 hs IH]; intros i rows H; [simpl; eauto |].
  rewrite csv_columns_cons. destruct (header_name_unit h0) as [nm un].
  destruct (csv_column_defined V cat nm un i rows) as [a ->]; [intros r Hr; apply H in Hr; simpl in Hr; lia |].
  destruct (IH (S i) rows) as [b ->]; [intros r Hr; apply H in Hr; simpl in Hr; lia | eauto].
Qed.

(* all that the proofs below use of the ten digit characters *)
Lemma digit_char_facts : forall d, (d < 10)%nat ->
  is_digit (digit_char d) = true /\ digit_val (digit_char d) = Z.of_nat d /\ is_ws (digit_char d) = false
  /\ (forall r, read_sign (String (digit_char d) r) = (1%Z, String (digit_char d) r))
  /\ (forall r, String.eqb (String (digit_char d) r) "N/A" = false).
Proof. intros d H. do 10 (destruct d as [|d]; [repeat split |]). lia. Qed.

Opaque digit_char.

Lemma all_digits_cons : forall d r, all_digits (d :: r) = true <-> (d < 10)%nat /\ all_digits r = true.
Proof. intros. unfold all_digits. simpl. now rewrite andb_true_iff, Nat.ltb_lt. Qed.

Lemma all_digits_app : forall a b, all_digits (a ++ b)%list = all_digits a && all_digits b.
Proof. intros. unfold all_digits. apply forallb_app. Qed.

Lemma all_digits_concat : forall gs, forallb all_digits gs = true -> all_digits (concat gs) = true.
Proof.
  induction gs; simpl; [reflexivity |]. rewrite andb_true_iff, all_digits_app. intros [-> H]. auto.
Qed.

Lemma digits_str_app : forall a b, digits_str (a ++ b)%list = digits_str a ++ digits_str b.
Proof. induction a; simpl; intros; [reflexivity | now rewrite IHa]. Qed.

Lemma digits_ws_free : forall ds, all_digits ds = true -> ws_free (digits_str ds) = true.
Proof.
  induction ds; [reflexivity |]. rewrite all_digits_cons. intros [Hd Hr].
  apply ws_free_cons. split; [apply (digit_char_facts a Hd) | auto].
Qed.

Lemma digits_no_char : forall ds c, all_digits ds = true -> is_digit c = false ->
  all_chars (fun x => negb (Ascii.eqb x c)) (digits_str ds) = true.
Proof.
  induction ds; intros c H Hc; [reflexivity |]. apply all_digits_cons in H. destruct H as [Hd Hr].
  apply all_chars_cons. split; [| auto].
  destruct (Ascii.eqb_spec (digit_char a) c) as [<- |]; [| reflexivity].
  destruct (digit_char_facts a Hd) as (Hx & _). congruence.
Qed.

(* what may follow a run of digits: nothing, or a character that is neither a digit nor '_' *)
Definition stops (rest : string) : Prop :=
  match rest with "" => True | String c _ => is_digit c = false /\ Ascii.eqb c "_"%char = false end.

Lemma scan_digits_run : forall ds st acc cnt rest, all_digits ds = true -> (st < 2)%nat -> stops rest ->
  scan_digits st acc cnt (digits_str ds ++ rest) = Some (digits_val acc ds, (cnt + Z.of_nat (List.length ds))%Z, rest).
Proof.
  induction ds; intros st acc cnt rest H Hst Hs.
  - simpl. rewrite Z.add_0_r. destruct rest as [|c r].
    + destruct st as [|[|st]]; [reflexivity | reflexivity | lia].
    + simpl in Hs. destruct Hs as [H1 H2]. simpl. rewrite H1, H2. destruct st as [|[|st]]; [reflexivity | reflexivity | lia].
  - apply all_digits_cons in H. destruct H as [Hd Hr].
    destruct (digit_char_facts a Hd) as (Hx & Hv & _).
    change (digits_str (a :: ds) ++ rest) with (String (digit_char a) (digits_str ds ++ rest)).
    simpl scan_digits. rewrite Hx, Hv. rewrite IHds by (auto; lia).
    f_equal. f_equal. f_equal. simpl List.length. lia.
Qed.

Lemma groups_unseparated : forall gs g, all_digits g = true -> forallb all_digits gs = true ->
  remove_char ","%char (groups_str g gs) = digits_str (g ++ concat gs)%list.
Proof.
  induction gs; intros g Hg Hgs; simpl.
  - rewrite !app_nil_r_s, app_nil_r. apply remove_char_absent, digits_no_char; [assumption | reflexivity].
  - simpl in Hgs. apply andb_true_iff in Hgs. destruct Hgs as [Ha Hr].
    rewrite remove_char_app. simpl remove_char. rewrite IHgs by assumption.
    rewrite (remove_char_absent _ (digits_str g)) by (apply digits_no_char; [assumption | reflexivity]).
    now rewrite <- digits_str_app.
Qed.

(* a sign, digits, and a tail that is empty or a point followed by digits: the forms int() and float() get *)
Section Numerals.
  Variables (neg : bool) (ds : list nat).
  Hypothesis Hds : all_digits ds = true.
  Hypothesis Hne : ds <> [].

  Lemma numeral_all_chars : forall p tail, p "-"%char = true ->
    all_chars p (digits_str ds) = true -> all_chars p tail = true ->
    all_chars p ((if neg then "-" else "") ++ digits_str ds ++ tail) = true.
  Proof. intros p tail Hm Hd Ht. rewrite !all_chars_app, Hd, Ht. destruct neg; simpl; now rewrite ?Hm. Qed.

  Lemma read_sign_digits : forall rest,
    read_sign ((if neg then "-" else "") ++ digits_str ds ++ rest) = (sign_of neg, digits_str ds ++ rest).
  Proof.
    intros rest. destruct neg; [reflexivity |]. destruct ds as [|d r]; [contradiction |].
    apply all_digits_cons in Hds. apply (digit_char_facts d), Hds.
  Qed.

  Lemma count_positive : forall k, (0 <= k)%Z -> (0 <? 0 + Z.of_nat (List.length ds) + k)%Z = true.
  Proof. intros. apply Z.ltb_lt. destruct ds; [contradiction | simpl List.length; lia]. Qed.

  Lemma py_int_digits :
    py_int ((if neg then "-" else "") ++ digits_str ds) = Some (sign_of neg * digits_val 0 ds)%Z.
  Proof.
    unfold py_int. rewrite <- (app_nil_r_s (digits_str ds)).
    rewrite strip_ws_free by (apply numeral_all_chars; auto using digits_ws_free).
    rewrite read_sign_digits, scan_digits_run by (auto; exact I).
    rewrite <- (Z.add_0_r (0 + _)), count_positive by lia. reflexivity.
  Qed.

  Lemma py_float_digits : forall fs, all_digits fs = true ->
    py_float ((if neg then "-" else "") ++ digits_str ds ++ "." ++ digits_str fs)
    = Some ((sign_of neg * (digits_val 0 ds * 10 ^ Z.of_nat (List.length fs) + digits_val 0 fs))%Z,
            (- Z.of_nat (List.length fs))%Z).
  Proof.
    intros fs Hfs. unfold py_float.
    rewrite strip_ws_free
      by (apply numeral_all_chars; auto using digits_ws_free; apply ws_free_cons; auto using digits_ws_free).
    rewrite read_sign_digits, scan_digits_run by (auto; split; reflexivity).
    change ("." ++ digits_str fs) with (String "."%char (digits_str fs)). cbv iota.
    rewrite <- (app_nil_r_s (digits_str fs)), scan_digits_run by (auto; exact I).
    rewrite count_positive by lia. simpl read_exp. cbv iota. now rewrite !Z.add_0_l.
  Qed.
End Numerals.

Lemma parse_rendered : forall neg g gs frac,
  all_digits g = true -> forallb all_digits gs = true -> g <> [] -> all_digits frac = true ->
  parse_number (render_number neg g gs frac) =
  match frac with
  | [] => MInt (sign_of neg * digits_val 0 (g ++ concat gs))
  | _ => MFlt (sign_of neg * (digits_val 0 (g ++ concat gs) * 10 ^ Z.of_nat (List.length frac) + digits_val 0 frac))
              (- Z.of_nat (List.length frac))
  end.
Proof.
  intros neg g gs frac Hg Hgs Hne Hf. unfold parse_number, render_number.
  assert (Hds : all_digits (g ++ concat gs) = true) by (now rewrite all_digits_app, Hg, all_digits_concat).
  assert (Hdne : (g ++ concat gs)%list <> []) by (destruct g; [contradiction | discriminate]).
  assert (Hna : forall tail, String.eqb ((if neg then "-" else "") ++ groups_str g gs ++ tail) "N/A" = false).
  { intros tail. destruct neg; [reflexivity |]. destruct g as [|d r]; [contradiction |].
    apply all_digits_cons in Hg. destruct gs; cbn [append groups_str digits_str]; apply (digit_char_facts d), Hg. }
  rewrite Hna, !remove_char_app, groups_unseparated by assumption. clear Hna.
  replace (remove_char "," (if neg then "-" else "")) with (if neg then "-" else "") by (now destruct neg).
  destruct frac as [|f fs].
  - rewrite contains_char_absent
      by (apply numeral_all_chars; auto using digits_no_char).
    simpl remove_char. rewrite app_nil_r_s. now rewrite py_int_digits.
  - rewrite (remove_char_absent _ ("." ++ _))
      by (apply all_chars_cons; auto using digits_no_char).
    rewrite <- (app_assoc_s (if neg then "-" else "")), contains_mid, app_assoc_s.
    now rewrite py_float_digits.
Qed.

Lemma readlines_step : forall c r,
  readlines (String c r) =
  if Ascii.eqb c NLc then NL :: readlines r
  else match r with "" => [String c ""] | _ => cons_head c (readlines r) end.
Proof. reflexivity. Qed.

Lemma readlines_line : forall l rest, all_chars (fun c => negb (Ascii.eqb c NLc)) l = true ->
  readlines (l ++ NL ++ rest) = (l ++ NL) :: readlines rest.
Proof.
  induction l; intros rest; [reflexivity |]. rewrite all_chars_cons, negb_true_iff. intros [H1 H2].
  change (String a l ++ NL ++ rest) with (String a (l ++ NL ++ rest)).
  rewrite readlines_step, H1, (IHl rest H2).
  destruct (l ++ NL ++ rest) eqn:E; [destruct l; discriminate | reflexivity].
Qed.
