(* Proofs/ScalingProofs.v - how economic results scale (C11): NPV, cumulative cash flow and payback respect year-by-year
   equality of the cash flow and the payback period is invariant under scaling; homogeneity of every levelized cost in
   the cost inputs; efficiency scaling of LCOH; price monotonicity of NPV; neutral add-ons / credits / grants.
   The file also holds the definitions the C11 statements are written in: scale_costs, tscale, with_heat, with_prices,
   nonneg, addon_energy, base_project_cashflow, allzero, with_ccap. *)
From Coq Require Import QArith Qabs Qpower Qfield List ZArith Bool Lia Lqa.
From Verif Require Import Base.Flat Model.CashFlow Model.Lcoe Model.Costs
     Proofs.FlatFacts Proofs.CashFlowProofs Proofs.LcoeProofs Proofs.CostsProofs.
Import ListNotations.
Open Scope Q_scope.

(* series equal year by year (Forall2 Qeq); every result computed from a series respects that *)
Lemma F2_refl : forall l : list Q, Forall2 Qeq l l.
Proof. induction l; constructor; auto. reflexivity. Qed.
Lemma F2_sym : forall a b : list Q, Forall2 Qeq a b -> Forall2 Qeq b a.
Proof. intros a b H. induction H; constructor; auto. now symmetry. Qed.
Lemma F2_trans : forall a b c : list Q, Forall2 Qeq a b -> Forall2 Qeq b c -> Forall2 Qeq a c.
Proof.
  intros a b c H. revert c. induction H as [|x y l l' Hxy _ IH]; intros c Hc; inversion Hc; subst; constructor.
  - now rewrite Hxy. - now apply IH.
Qed.
#[global] Instance F2_equiv : Equivalence (Forall2 Qeq) :=
  {| Equivalence_Reflexive := F2_refl; Equivalence_Symmetric := F2_sym; Equivalence_Transitive := F2_trans |}.

Lemma F2_map (f g : Q -> Q) : (forall x, f x == g x) -> forall l, Forall2 Qeq (map f l) (map g l).
Proof. intros H. induction l; simpl; constructor; auto. Qed.
Lemma F2_map2 (f g : Q -> Q -> Q) : (forall x y, f x y == g x y) -> forall a b, Forall2 Qeq (map2 f a b) (map2 g a b).
Proof. intros H. induction a as [|x a IH]; intros [|y b]; simpl; constructor; auto. Qed.
Lemma repeat_F2eq (x y : Q) : x == y -> forall n, Forall2 Qeq (repeat x n) (repeat y n).
Proof. intros H n. induction n; simpl; constructor; assumption. Qed.

#[global] Instance geo0_ext q : Proper (Forall2 Qeq ==> Qeq) (geo0 q).
Proof. intros l l' H. induction H as [|x y l l' Hxy _ IH]; simpl; [reflexivity|]. now rewrite Hxy, IH. Qed.
#[global] Instance geo1_ext q : Proper (Forall2 Qeq ==> Qeq) (geo1 q).
Proof. intros l l' H. unfold geo1. now rewrite H. Qed.
#[global] Instance npv_ext : Proper (Qeq ==> Forall2 Qeq ==> Qeq) npv.
Proof. intros r r' Hr cf cf' H. induction H as [|x y l l' Hxy _ IH]; simpl; [reflexivity|]. now rewrite Hxy, IH, Hr. Qed.
#[global] Instance running_from_ext : Proper (Qeq ==> Forall2 Qeq ==> Forall2 Qeq) running_from.
Proof.
  intros a a' Ha l l' H. revert a a' Ha. induction H as [|x y l l' Hxy _ IH]; intros a a' Ha; simpl; constructor.
  - now rewrite Ha, Hxy. - apply IH. now rewrite Ha, Hxy.
Qed.
#[global] Instance running_ext : Proper (Forall2 Qeq ==> Forall2 Qeq) running.
Proof. intros l l' H. now apply running_from_ext. Qed.
#[global] Instance last_ext : Proper (Forall2 Qeq ==> Qeq ==> Qeq) (@last Q).
Proof.
  intros l l' H d d' Hd. induction H as [|x y l l' Hxy Hl IH]; [assumption|].
  destruct Hl; [assumption | exact IH].
Qed.
(* the payback loop only compares and combines values *)
#[global] Instance payback_loop_ext : Proper (Qeq ==> eq ==> Forall2 Qeq ==> Qeq ==> Qeq) payback_loop.
Proof.
  intros p p' Hp i ? <- l l' H. revert p p' Hp i.
  induction H as [|x y l l' Hxy _ IH]; intros p p' Hp i acc acc' Ha; simpl.
  - assumption.
  - apply IH; [assumption|]. unfold Qltb, Qleb.
    (* the two tests read x and p through Qle_bool, which respects == *)
    rewrite (Qleb_comp _ _ Hxy 0 0 (Qeq_refl 0)), (Qleb_comp _ _ Hp 0 0 (Qeq_refl 0)).
    destruct (negb (Qle_bool y 0) && Qle_bool p' 0).
    + now rewrite Hp, Hxy.
    + assumption.
Qed.
#[global] Instance payback_ext : Proper (Forall2 Qeq ==> Qeq) payback.
Proof. intros cum cum' H. unfold payback. now rewrite H. Qed.

(* ... and only their signs and ratios: multiplying the cumulative series by k > 0 changes neither (the fraction of the
   crossing year is |prev| / (c + |prev|)) *)
Lemma last_scale k : forall l, last (map (Qmult k) l) 0 == k * last l 0.
Proof. induction l as [|x [|y l] IH]; [simpl; ring | reflexivity | exact IH]. Qed.
Lemma Qle_bool_scale_l k x : 0 < k -> Qle_bool (k * x) 0 = Qle_bool x 0.
Proof.
  intros Hk. destruct (Qle_bool (k * x) 0) eqn:E1, (Qle_bool x 0) eqn:E2; try reflexivity.
  - apply Qle_bool_iff in E1. assert (~ x <= 0) by (intro H; apply Qle_bool_iff in H; congruence). nra.
  - apply Qle_bool_iff in E2. assert (~ k * x <= 0) by (intro H; apply Qle_bool_iff in H; congruence). nra.
Qed.
Lemma payback_loop_scale k : 0 < k -> forall l p i acc,
  payback_loop (k * p) i (map (Qmult k) l) acc == payback_loop p i l acc.
Proof.
  intros Hk. induction l as [|c l IH]; intros p i acc; cbn [map payback_loop]; [reflexivity|].
  rewrite IH. apply payback_loop_ext; [reflexivity | reflexivity | reflexivity |].
  unfold Qltb, Qleb. rewrite !Qle_bool_scale_l by assumption.
  destruct (negb (Qle_bool c 0)) eqn:Ec; cbn [andb]; [|reflexivity].
  destruct (Qle_bool p 0) eqn:Ep; [|reflexivity].
  apply negb_true_iff in Ec. assert (Hc : 0 < c).
  { destruct (Qlt_le_dec 0 c) as [H|H]; [assumption|]. apply Qle_bool_iff in H. congruence. }
  rewrite Qabs_Qmult, (Qabs_pos k) by lra.
  pose proof (Qabs_nonneg p) as Hp. field. nra.
Qed.

Lemma geo0_scale q k : forall l, geo0 q (map (Qmult k) l) == k * geo0 q l.
Proof. induction l as [|x l IH]; simpl; [ring|]. rewrite IH. ring. Qed.
Lemma geo1_scale q k l : geo1 q (map (Qmult k) l) == k * geo1 q l.
Proof. unfold geo1. rewrite geo0_scale. ring. Qed.
Lemma sumQ_scale k : forall l, sumQ (map (Qmult k) l) == k * sumQ l.
Proof. induction l as [|x l IH]; simpl; [ring|]. rewrite IH. ring. Qed.

(* the cost inputs of the levelized-cost function, multiplied by k *)
Definition scale_costs (k : Q) (c : lc_in) : lc_in :=
  {| l_econ := l_econ c; l_enduse := l_enduse c; l_plant := l_plant c;
     l_ccap := k * l_ccap c; l_coam := k * l_coam c; l_ratio := l_ratio c;
     l_fcr := l_fcr c; l_inflc := l_inflc c; l_disc := l_disc c;
     l_fib := l_fib c; l_bir := l_bir c; l_ctr := l_ctr c; l_eir := l_eir c; l_rinfl := l_rinfl c; l_ptr := l_ptr c;
     l_gtr := l_gtr c; l_ritc := l_ritc c; l_life := l_life c;
     l_net := l_net c; l_heat := l_heat c; l_cool := l_cool c; l_pump := l_pump c; l_hp := l_hp c;
     l_elec_buy := k * l_elec_buy c;
     l_avg_pump := k * l_avg_pump c; l_avg_hp := k * l_avg_hp c; l_avg_ng := k * l_avg_ng c;
     l_ng := map (Qmult k) (l_ng c); l_demand := l_demand c |}.

(* "year by year k times the series v": Forall2 Qeq _ (map (Qmult k) v).  The annual cost series of the scaled inputs
   are built by repeat / sadd / vadd from scalars and series that are k times those of the original inputs. *)
Lemma repeat_scale k x n : repeat (k * x) n = map (Qmult k) (repeat x n).
Proof. induction n; simpl; congruence. Qed.
Lemma repeat_scaled k x x' n : x' == k * x -> Forall2 Qeq (repeat x' n) (map (Qmult k) (repeat x n)).
Proof. intros H. rewrite <- repeat_scale. now apply repeat_F2eq. Qed.

Lemma sadd_scaled k a a' v v' : a' == k * a -> Forall2 Qeq v (map (Qmult k) v') ->
  Forall2 Qeq (sadd a' v) (map (Qmult k) (sadd a v')).
Proof.
  intros Ha. revert v. induction v' as [|y v' IH]; intros v H; inversion H as [|x ? ? ? Hx]; subst; simpl; constructor.
  - rewrite Hx, Ha. ring.
  - now apply IH.
Qed.
Lemma sadd_scale k a v v' : Forall2 Qeq v (map (Qmult k) v') ->
  Forall2 Qeq (sadd (k * a) v) (map (Qmult k) (sadd a v')).
Proof. apply sadd_scaled. reflexivity. Qed.

Lemma vadd_scale k : forall a a' b b', Forall2 Qeq a (map (Qmult k) a') -> Forall2 Qeq b (map (Qmult k) b') ->
  Forall2 Qeq (vadd a b) (map (Qmult k) (vadd a' b')).
Proof.
  intros a a'. revert a. induction a' as [|x a' IH]; intros a b b' Ha Hb; inversion Ha as [|? ? ? ? Hx]; subst; simpl.
  - constructor.
  - destruct b' as [|y b']; inversion Hb as [|? ? ? ? Hy]; subst; simpl; constructor.
    + rewrite Hx, Hy. ring.
    + now apply IH.
Qed.

Lemma cost_series_scale k c v : Forall2 Qeq (cost_series (scale_costs k c) v) (map (Qmult k) (cost_series c v)).
Proof.
  unfold cost_series, smul. rewrite map_map. apply F2_map. intros x. simpl. unfold Qdiv. ring.
Qed.

(* the scalar cost inputs of [scale_costs k c] are k times those of c literally, or by one of three ring laws *)
Lemma scaled_0 k : 0 == k * 0.
Proof. ring. Qed.
Lemma scaled_mult k a b : k * a * b == k * (a * b).
Proof. ring. Qed.
Lemma scaled_plus k a b : k * a + k * b == k * (a + b).
Proof. ring. Qed.
Create HintDb scaled.
#[global] Hint Resolve Qeq_refl scaled_0 scaled_mult scaled_plus : scaled.

(* decomposes "the annual cost series of [scale_costs k c] is k times that of c" along the way the series is built *)
Ltac series :=
  lazymatch goal with
  | |- Forall2 Qeq (const_series _ _) _ => unfold const_series; apply repeat_scaled; simpl; auto with scaled
  | |- Forall2 Qeq (sadd _ _) _ => apply sadd_scaled; [simpl; auto with scaled | series]
  | |- Forall2 Qeq (vadd _ _) _ => apply vadd_scale; series
  | |- Forall2 Qeq (cost_series (scale_costs _ _) _) _ => apply cost_series_scale
  | |- Forall2 Qeq (l_ng (scale_costs _ _)) _ => apply F2_refl
  | |- _ == _ => simpl; auto with scaled
  end.

(* the levelized-cost formulas read the configuration only through its financial parameters; scale_costs and with_heat
   leave those alone.  (Stated on the fields and proved by rewriting: converting `lev .. (scale_costs k c) ..` with
   `lev .. c ..` as a whole makes the kernel evaluate the rational arithmetic inside.) *)
Definition same_finance (c c' : lc_in) : Prop :=
  l_econ c' = l_econ c /\ l_fcr c' = l_fcr c /\ l_inflc c' = l_inflc c /\ l_disc c' = l_disc c /\ l_fib c' = l_fib c /\
  l_bir c' = l_bir c /\ l_ctr c' = l_ctr c /\ l_eir c' = l_eir c /\ l_rinfl c' = l_rinfl c /\ l_ptr c' = l_ptr c /\
  l_gtr c' = l_gtr c /\ l_ritc c' = l_ritc c /\ l_life c' = l_life c.
Lemma lev_same_finance c c' : same_finance c c' -> forall cap om xs a_std a_bic avgE energy unit,
  lev spec_levelizers c' cap om xs a_std a_bic avgE energy unit = lev spec_levelizers c cap om xs a_std a_bic avgE energy unit.
Proof.
  intros (E1 & E2 & E3 & E4 & E5 & E6 & E7 & E8 & E9 & E10 & E11 & E12 & E13) *.
  assert (Hi : iave c' = iave c) by (unfold iave; now rewrite E5, E6, E7, E8).
  assert (Hc : crf c' = crf c) by (unfold crf; now rewrite Hi, E13).
  unfold lev. cbn [spec_levelizers L_std_num L_std_den L_bic_num L_bic_den].
  unfold fcr_num, std_num_spec, std_den_spec, bic_num_spec, bic_den_spec, bic_combine, bic_it_coeff, bic_qd, bic_qg.
  now rewrite Hi, Hc, E1, E2, E3, E4, E7, E9, E10, E11, E12, E13.
Qed.
Lemma scale_costs_finance k c : same_finance c (scale_costs k c).
Proof. repeat split. Qed.

Lemma bic_combine_scale k c cap cap' a a' b b' d d' e e' :
  cap' == k * cap -> a' == k * a -> b' == k * b -> d' == k * d -> e' == k * e ->
  bic_combine c cap' a' b' d' e' == k * bic_combine c cap a b d e.
Proof. intros Hc Ha Hb Hd He. unfold bic_combine, Qdiv. ring [Hc Ha Hb Hd He]. Qed.
Lemma bic_num_spec_scale k c cap cap' annual annual' : cap' == k * cap -> Forall2 Qeq annual' (map (Qmult k) annual) ->
  bic_num_spec c cap' annual' == k * bic_num_spec c cap annual.
Proof.
  intros Hc H. unfold bic_num_spec, bic_it_coeff. cbv zeta.
  apply bic_combine_scale; [assumption | ring [Hc] | ring [Hc] | unfold Qdiv; ring [Hc] | now rewrite H, geo1_scale].
Qed.

(* one levelized cost is homogeneous of degree one in (capital cost, O&M, other annual costs, annual cost series) *)
Lemma lev_scale k c cap cap' om om' xs xs' a_std a_std' a_bic a_bic' avgE energy unit :
  cap' == k * cap -> om' == k * om -> xs' == k * xs ->
  Forall2 Qeq a_std' (map (Qmult k) a_std) -> Forall2 Qeq a_bic' (map (Qmult k) a_bic) ->
  lev spec_levelizers (scale_costs k c) cap' om' xs' a_std' a_bic' avgE energy unit
  == k * lev spec_levelizers c cap om xs a_std a_bic avgE energy unit.
Proof.
  intros Hc Ho Hx Hs Hb. rewrite (lev_same_finance c _ (scale_costs_finance k c)). unfold lev.
  destruct (Z.eqb (l_econ c) 1); [|destruct (Z.eqb (l_econ c) 2)]; cbn [L_std_num L_std_den L_bic_num L_bic_den spec_levelizers].
  - unfold fcr_num, Qdiv. ring [Hc Ho Hx].
  - unfold std_num_spec. rewrite Hs, geo0_scale. unfold Qdiv. ring [Hc].
  - rewrite (bic_num_spec_scale k c cap cap' a_bic a_bic' Hc Hb). unfold Qdiv. ring.
Qed.

Definition tscale (k : Q) (t : Q * Q * Q) : Q * Q * Q := let '(a, b, d) := t in (k * a, k * b, k * d).

(* C11: multiplying every cost input by k multiplies every levelized cost by k - all models, all end-uses *)
Theorem lcoe_homogeneous k c : teq (lcoe_spec (scale_costs k c)) (tscale k (lcoe_spec c)).
Proof.
  unfold lcoe_spec, lcoe_gen. cbv zeta.
  change (classify (l_enduse (scale_costs k c)) (l_plant (scale_costs k c))) with (classify (l_enduse c) (l_plant c)).
  destruct (classify (l_enduse c) (l_plant c)); apply teq_mk; try apply scaled_0; apply lev_scale; series.
Qed.

(* the same of the code's own (vector) computation, through C01; scaling keeps every series at its length *)
Lemma teq_sym a b : teq a b -> teq b a.
Proof. unfold teq. intros (H1 & H2 & H3). repeat split; symmetry; assumption. Qed.
Lemma teq_trans a b c : teq a b -> teq b c -> teq a c.
Proof. unfold teq. intros (H1 & H2 & H3) (G1 & G2 & G3). repeat split; etransitivity; eassumption. Qed.
Lemma tscale_teq k a b : teq a b -> teq (tscale k a) (tscale k b).
Proof.
  destruct a as [[a1 a2] a3], b as [[b1 b2] b3]. unfold teq, tscale. simpl. intros (H1 & H2 & H3).
  repeat split; [now rewrite H1 | now rewrite H2 | now rewrite H3].
Qed.
Lemma wf_l_scale k c : wf_l c -> wf_l (scale_costs k c).
Proof.
  unfold wf_l. cbv zeta.
  change (classify (l_enduse (scale_costs k c)) (l_plant (scale_costs k c))) with (classify (l_enduse c) (l_plant c)).
  destruct (classify (l_enduse c) (l_plant c)); simpl; rewrite ?map_length; trivial.
Qed.
Theorem lcoe_code_homogeneous k c : wf_l c -> teq (lcoe_code (scale_costs k c)) (tscale k (lcoe_code c)).
Proof.
  intros H. eapply teq_trans; [now apply lcoe_code_is_spec, wf_l_scale|].
  eapply teq_trans; [apply lcoe_homogeneous|]. apply tscale_teq, teq_sym. now apply lcoe_code_is_spec.
Qed.

Lemma avg_scale s l : avg (map (Qmult s) l) == s * avg l.
Proof. unfold avg. rewrite sumQ_scale, map_length. unfold Qdiv. ring. Qed.

Lemma lev_energy_scale c cap om xs a_std a_bic energy unit s :
  lev spec_levelizers c cap om xs a_std a_bic (avg (map (Qmult s) energy)) (map (Qmult s) energy) unit
  == / s * lev spec_levelizers c cap om xs a_std a_bic (avg energy) energy unit.
Proof.
  unfold lev.
  destruct (Z.eqb (l_econ c) 1); [|destruct (Z.eqb (l_econ c) 2)]; cbn [L_std_num L_std_den L_bic_num L_bic_den spec_levelizers].
  - rewrite avg_scale. unfold Qdiv. rewrite Qinv_mult_distr. ring.
  - unfold std_den_spec. rewrite geo0_scale. unfold Qdiv. rewrite Qinv_mult_distr. ring.
  - unfold bic_den_spec. rewrite geo1_scale. unfold Qdiv. rewrite Qinv_mult_distr. ring.
Qed.

(* direct-use heat: heat produced = efficiency x heat extracted, so the yearly heat series is proportional to the
   end-use efficiency; scaling it by s divides LCOH by s (s = 1/2: LCOH doubles); all three economic models *)
Definition with_heat (c : lc_in) (h : list Q) : lc_in :=
  {| l_econ := l_econ c; l_enduse := l_enduse c; l_plant := l_plant c; l_ccap := l_ccap c; l_coam := l_coam c;
     l_ratio := l_ratio c; l_fcr := l_fcr c; l_inflc := l_inflc c; l_disc := l_disc c; l_fib := l_fib c; l_bir := l_bir c;
     l_ctr := l_ctr c; l_eir := l_eir c; l_rinfl := l_rinfl c; l_ptr := l_ptr c; l_gtr := l_gtr c; l_ritc := l_ritc c;
     l_life := l_life c; l_net := l_net c; l_heat := h; l_cool := l_cool c; l_pump := l_pump c; l_hp := l_hp c;
     l_elec_buy := l_elec_buy c; l_avg_pump := l_avg_pump c; l_avg_hp := l_avg_hp c; l_avg_ng := l_avg_ng c;
     l_ng := l_ng c; l_demand := l_demand c |}.

Lemma with_heat_finance c h : same_finance c (with_heat c h).
Proof. repeat split. Qed.

Lemma lcoh_spec c : classify (l_enduse c) (l_plant c) = LHeat ->
  snd (fst (lcoe_spec c)) = lev spec_levelizers c (l_ccap c) (l_coam c) (l_avg_pump c) (sadd (l_coam c) (cost_series c (l_pump c)))
                              (sadd (l_coam c) (cost_series c (l_pump c))) (avg (l_heat c)) (l_heat c) (e8 * mmbtu).
Proof. intros H. unfold lcoe_spec, lcoe_gen. now rewrite H. Qed.

Theorem lcoh_efficiency_scaling s c : classify (l_enduse c) (l_plant c) = LHeat ->
  snd (fst (lcoe_spec (with_heat c (map (Qmult s) (l_heat c))))) == / s * snd (fst (lcoe_spec c)).
Proof.
  intros Hk. rewrite (lcoh_spec c Hk), (lcoh_spec (with_heat c _) Hk), (lev_same_finance c _ (with_heat_finance c _)).
  apply lev_energy_scale.
Qed.

(* sale prices: no levelized cost depends on them ([lc_in] has no price field); NPV moves with them *)
Definition with_prices (c : cf_in) (pE pH pC : list Q) : cf_in :=
  {| ci_kind := ci_kind c; ci_cy := ci_cy c; ci_ccap := ci_ccap c; ci_coam := ci_coam c; ci_carbon := ci_carbon c;
     ci_gi := ci_gi c; ci_ni := ci_ni c; ci_eE := ci_eE c; ci_eH := ci_eH c; ci_eC := ci_eC c;
     ci_pE := pE; ci_pH := pH; ci_pC := pC; ci_pCarb := ci_pCarb c |}.

Definition nonneg (l : list Q) : Prop := Forall (fun x => 0 <= x) l.

Lemma sale_le x y y' : 0 <= x -> y <= y' -> x * y / million <= x * y' / million.
Proof. intros Hx Hy. unfold Qdiv. apply Qmult_le_compat_r; [nra | discriminate]. Qed.
Lemma sale_lt x y y' : 0 < x -> y < y' -> x * y / million < x * y' / million.
Proof. intros Hx Hy. unfold Qdiv. apply Qmult_lt_compat_r; [reflexivity | nra]. Qed.

Lemma rev_ops_mono : forall e p p', nonneg e -> Forall2 Qle p p' -> Forall2 Qle (rev_ops e p) (rev_ops e p').
Proof.
  intros e p p' He. revert p p'. induction He as [|x e Hx _ IH]; intros p p' Hp; [constructor|].
  destruct Hp; simpl; constructor; [now apply sale_le | now apply IH].
Qed.


Lemma total_cashflow_with_prices c pE pH pC :
  total_cashflow (with_prices c pE pH pC) =
  repeat (capex_year c) (ci_cy c) ++
  map (fun r => r - ci_coam c)
      (if ci_carbon c
       then map2 Qplus (product_rev_ops (ci_kind c) (ci_eE c) (ci_eH c) (ci_eC c) pE pH pC)
                       (carbon_rev_ops (ci_kind c) (ci_gi c) (ci_ni c) (ci_eE c) (ci_eH c) (ci_pCarb c))
       else product_rev_ops (ci_kind c) (ci_eE c) (ci_eH c) (ci_eC c) pE pH pC).
Proof. reflexivity. Qed.

Lemma cashflow_mono_in_prices c pE pH pC pE' pH' pC' :
  nonneg (ci_eE c) -> nonneg (ci_eH c) -> nonneg (ci_eC c) ->
  Forall2 Qle pE pE' -> Forall2 Qle pH pH' -> Forall2 Qle pC pC' ->
  Forall2 Qle (total_cashflow (with_prices c pE pH pC)) (total_cashflow (with_prices c pE' pH' pC')).
Proof.
  intros HE HH HC HpE HpH HpC. rewrite !total_cashflow_with_prices.
  apply Forall2_app; [apply F2le_refl|]. apply F2le_map; [intros; lra|].
  assert (Hbase : Forall2 Qle (product_rev_ops (ci_kind c) (ci_eE c) (ci_eH c) (ci_eC c) pE pH pC)
                              (product_rev_ops (ci_kind c) (ci_eE c) (ci_eH c) (ci_eC c) pE' pH' pC')).
  { destruct (ci_kind c); simpl; try (now apply rev_ops_mono).
    apply F2le_map2_plus; now apply rev_ops_mono. }
  destruct (ci_carbon c); [|assumption].
  apply F2le_map2_plus; [assumption | apply F2le_refl].
Qed.

Lemma rev_ops_strict : forall e p p', nonneg e -> Forall2 Qle p p' ->
  (exists j, 0 < nth j e 0 /\ nth j p 0 < nth j p' 0 /\ (j < length e)%nat /\ (j < length p)%nat) ->
  Forall2_one_lt (rev_ops e p) (rev_ops e p').
Proof.
  intros e p p' He Hp (j & Hj). revert e p p' He Hp Hj.
  induction j as [|j IH]; intros e p p' He Hp (Hpos & Hlt & Hle & Hlp).
  - destruct He as [|x e Hx He]; [inversion Hle|]. destruct Hp as [|y y' p p' Hy Hp]; [inversion Hlp|].
    simpl in *. apply F2lt_here; [now apply sale_lt | now apply rev_ops_mono].
  - destruct He as [|x e Hx He]; [inversion Hle|]. destruct Hp as [|y y' p p' Hy Hp]; [inversion Hlp|].
    simpl in *. apply F2lt_later; [now apply sale_le|].
    apply IH; [assumption | assumption|]. repeat split; [assumption | assumption | lia | lia].
Qed.


Lemma carbon_rev_ops_length k gi ni eE eH pX : length (carbon_rev_ops k gi ni eE eH pX) =
  Nat.min (match k with KElec => length eE | KCogen => Nat.min (length eE) (length eH) | _ => length eH end) (length pX).
Proof. unfold carbon_rev_ops. rewrite map2_length_min. destruct k; simpl; now rewrite ?map_length, ?map2_length_min. Qed.
(* the series b covers the years of the series a: map2 does not truncate a *)
Lemma rev_ops_covers e p e' p' : (length e <= length e')%nat -> (length e <= length p')%nat ->
  (length (rev_ops e p) <= length (rev_ops e' p'))%nat.
Proof. intros H1 H2. rewrite !rev_ops_length_min. eapply Nat.le_trans; [apply Nat.le_min_l | now apply Nat.min_glb]. Qed.
Lemma carbon_covers e p k gi ni eE eH pX :
  (length e <= match k with KElec => length eE | KCogen => Nat.min (length eE) (length eH) | _ => length eH end)%nat ->
  (length e <= length pX)%nat -> (length (rev_ops e p) <= length (carbon_rev_ops k gi ni eE eH pX))%nat.
Proof.
  intros H1 H2. rewrite rev_ops_length_min, carbon_rev_ops_length. eapply Nat.le_trans; [apply Nat.le_min_l | now apply Nat.min_glb].
Qed.

(* NPV rises strictly as soon as the product revenue rises in one operating year and falls in none, whatever the
   product mix; the carbon revenue series, the same in both runs, has to cover the product revenue series *)
Lemma npv_strict_in_revenue r c pE pH pC pE' pH' pC' : 0 < 1 + r ->
  Forall2_one_lt (product_rev_ops (ci_kind c) (ci_eE c) (ci_eH c) (ci_eC c) pE pH pC)
                 (product_rev_ops (ci_kind c) (ci_eE c) (ci_eH c) (ci_eC c) pE' pH' pC') ->
  (ci_carbon c = true -> (length (product_rev_ops (ci_kind c) (ci_eE c) (ci_eH c) (ci_eC c) pE pH pC)
     <= length (carbon_rev_ops (ci_kind c) (ci_gi c) (ci_ni c) (ci_eE c) (ci_eH c) (ci_pCarb c)))%nat) ->
  npv r (total_cashflow (with_prices c pE pH pC)) < npv r (total_cashflow (with_prices c pE' pH' pC')).
Proof.
  intros Hr H Hlen. apply npv_strict_mono; [assumption|]. rewrite !total_cashflow_with_prices.
  apply F2lt_app_l, F2lt_map_minus. destruct (ci_carbon c); [|assumption].
  apply F2lt_map2_plus_l; [assumption | apply F2le_refl | now apply Hlen].
Qed.

(* a constant gain added to every yearly energy: the arithmetic of C11_neutral_addon only (no model definition uses it) *)
Definition addon_energy (gain : Q) (e : list Q) : list Q := map (fun x => x + gain) e.

(* on the cash-flow model of EconomicsAddOns.Calculate: an add-on whose CAPEX, OPEX, electricity gain, heat gain
   and profit are all zero has an all-zero revenue and cash-flow series, and the project cash flow with the add-on is,
   year by year, the project cash flow without it (every end-use, any number of construction years, any lifetime) *)
Definition base_project_cashflow (a : addon_in) : list Q :=
  repeat (- (1) * (a_ccap a / natQ (a_cy a))) (a_cy a) ++ project_ops a.
Definition allzero (l : list Q) : Prop := Forall (fun x => x == 0) l.

Lemma allzero_repeat x n : x == 0 -> allzero (repeat x n).
Proof. intros H. apply Forall_forall. intros y Hy. apply repeat_spec in Hy. now subst. Qed.
Lemma map2_Forall {A B C} (f : A -> B -> C) (P : C -> Prop) (Q1 : A -> Prop) (Q2 : B -> Prop) :
  (forall x y, Q1 x -> Q2 y -> P (f x y)) -> forall a b, Forall Q1 a -> Forall Q2 b -> Forall P (map2 f a b).
Proof.
  intros Hf a b Ha. revert b. induction Ha as [|x a Hx Ha IH]; intros b Hb; [constructor|].
  destruct Hb as [|y b Hy Hb]; simpl; constructor; auto.
Qed.
Lemma zero_plus_series : forall l z, allzero z -> (length l <= length z)%nat -> Forall2 Qeq (map2 Qplus z l) l.
Proof.
  induction l as [|x l IH]; intros z Hz Hlen.
  - destruct z; constructor.
  - destruct Hz as [|u z Hu Hz]; simpl in Hlen; [lia|]. simpl. constructor; [rewrite Hu; ring | apply IH; [assumption | lia]].
Qed.

Lemma zero_addon_revenue a : a_opex a == 0 -> a_egain a == 0 -> a_hgain a == 0 -> a_profit a == 0 ->
  allzero (addon_revenue a).
Proof.
  intros Ho He Hh Hp. unfold allzero, addon_revenue.
  apply (map2_Forall _ _ (fun x => x == 0) (fun x => x == 0)).
  - intros x y Hx Hy. rewrite Hx, Hy, Ho, Hp. ring.
  - unfold addon_elec_revenue. apply Forall_map, Forall_forall. intros p _.
    destruct (sells_elec (a_kind a)); [rewrite He|]; unfold Qdiv; ring.
  - unfold addon_heat_revenue. apply Forall_map, Forall_forall. intros p _.
    destruct (sells_heat (a_kind a)); [rewrite Hh|]; unfold Qdiv; ring.
Qed.

Lemma addon_revenue_covers_project a : (length (project_ops a) <= length (addon_revenue a))%nat.
Proof.
  unfold project_ops, addon_revenue, addon_elec_revenue, addon_heat_revenue.
  rewrite !map2_length_min, !map_length.
  destruct (sells_elec (a_kind a)), (sells_heat (a_kind a)); rewrite ?map_length; lia.
Qed.

Theorem zero_addon_project_cashflow a : a_capex a == 0 -> a_opex a == 0 -> a_egain a == 0 -> a_hgain a == 0 ->
  a_profit a == 0 -> Forall2 Qeq (addon_project_cashflow a) (base_project_cashflow a).
Proof.
  intros Hc Ho He Hh Hp. unfold addon_project_cashflow, base_project_cashflow. apply Forall2_app.
  - apply repeat_F2eq. rewrite Hc. unfold Qdiv. ring.
  - apply zero_plus_series; [now apply zero_addon_revenue | apply addon_revenue_covers_project].
Qed.

(* a zero-rate ITC / zero fees / zero incentives / zero grant change capital cost by nothing (CostsProofs.neutral_adjustments);
   the cash flow depends on capital cost only up to == *)
Definition with_ccap (c : cf_in) (x : Q) : cf_in :=
  {| ci_kind := ci_kind c; ci_cy := ci_cy c; ci_ccap := x; ci_coam := ci_coam c; ci_carbon := ci_carbon c;
     ci_gi := ci_gi c; ci_ni := ci_ni c; ci_eE := ci_eE c; ci_eH := ci_eH c; ci_eC := ci_eC c;
     ci_pE := ci_pE c; ci_pH := ci_pH c; ci_pC := ci_pC c; ci_pCarb := ci_pCarb c |}.
Lemma cashflow_ccap_ext c x y : x == y -> Forall2 Qeq (total_cashflow (with_ccap c x)) (total_cashflow (with_ccap c y)).
Proof.
  intros H. unfold total_cashflow. apply Forall2_app; [|reflexivity].
  apply repeat_F2eq. unfold capex_year. cbn [with_ccap ci_cy ci_ccap]. now rewrite H.
Qed.

