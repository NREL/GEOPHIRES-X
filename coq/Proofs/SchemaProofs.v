(* Proofs/SchemaProofs.v - soundness of the reflective checkers of Model/Schema.v and the link between
   "what the schema allows" and "what the reader accepts" (C19).  The two lists of names at the end are a
   literal copy of the pinned tree (accepted input names / names in the committed request schema). *)
From Coq Require Import QArith ZArith List String Bool.
From Verif Require Import Base.Flat Base.ParamRec Model.RangeReader Proofs.RangeReaderProofs
  Model.TokenReader Proofs.TokenReaderProofs Model.Schema.
Import ListNotations.
Open Scope Q_scope.

Lemma same_members {A} (mem : list A -> A -> bool) :
  (forall l x, mem l x = true <-> In x l) ->
  forall a b, forallb (mem b) a && forallb (mem a) b = true -> forall x, In x a <-> In x b.
Proof.
  intros R a b H x. apply andb_true_iff in H. rewrite !forallb_forall in H. destruct H as [Hab Hba].
  split; intros Hx; apply R; auto.
Qed.

Lemma forallb_map {A B} (f : A -> B) (g : B -> bool) l : forallb g (map f l) = forallb (fun x => g (f x)) l.
Proof. induction l as [|x r IH]; cbn; congruence. Qed.

Lemma filter_witness {A} (f : A -> bool) l k : List.length (filter f l) = S k -> exists x, In x l /\ f x = true.
Proof.
  destruct (filter f l) as [|x r] eqn:E; [discriminate|]. intros _. exists x. apply filter_In. rewrite E. left. reflexivity.
Qed.

Lemma mem_str_In x l : mem_str x l = true <-> In x l.
Proof. apply existsb_eq_In, String.eqb_eq. Qed.

(* [memZ] / [expand_run] are TokenReader's [memZb] / [runs_members] under other names *)
Lemma memZ_In n l : memZ n l = true <-> In n l.
Proof. exact (memZb_In n l). Qed.

Lemma in_runs_expand n rs : in_runs n rs = true <-> In n (flat_map expand_run rs).
Proof. exact (in_runs_members n rs). Qed.

Lemma pair_in_In l c n : pair_in l c n = true <-> In (c, n) l.
Proof.
  apply existsb_eq_In. intros [c' n']. cbn. rewrite andb_true_iff, !String.eqb_eq.
  split; [intros [-> ->]; reflexivity | intros [= -> ->]; auto].
Qed.

Lemma rfield_eqb_eq x y : rfield_eqb x y = true <-> x = y.
Proof.
  destruct x as [[a b] c], y as [[d e] f]. cbn. rewrite !andb_true_iff, !String.eqb_eq.
  split; [intros [[-> ->] ->]; reflexivity | intros [= -> -> ->]; auto].
Qed.

Lemma rfield_in_In l x : rfield_in l x = true <-> In x l.
Proof. apply existsb_eq_In, rfield_eqb_eq. Qed.

Lemma entry_in_In l e : entry_in l e = true <-> exists e', In e' l /\ s_name e' = s_name e /\ s_digest e' = s_digest e.
Proof.
  unfold entry_in. rewrite existsb_exists. split; intros [x [Hx E]]; exists x; (split; [exact Hx|]).
  - apply andb_true_iff in E. destruct E as [E1 E2]. split; apply String.eqb_eq; assumption.
  - destruct E as [E1 E2]. now rewrite E1, E2, !String.eqb_refl.
Qed.

Lemma rows_of_In classes t p : In p (rows_of classes t) <-> In p t /\ In (p_module p) classes.
Proof. unfold rows_of. rewrite filter_In, mem_str_In. reflexivity. Qed.

Lemma find_name_In n t p : find_name n t = Some p -> In p t /\ p_name p = n.
Proof.
  induction t as [|q r IH]; cbn; [discriminate|].
  destruct (String.eqb (p_name q) n) eqn:E.
  - intros H. injection H as <-. apply String.eqb_eq in E. auto.
  - intros H. destruct (IH H). auto.
Qed.

Lemma same_strings_sound a b : same_strings a b = true -> forall x, In x a <-> In x b.
Proof. exact (same_members str_in (fun l x => mem_str_In x l) a b). Qed.

Lemma names_ok_same t sch : names_ok t sch = same_strings (pnames t) (snames sch).
Proof. unfold same_strings, pnames, snames. rewrite !forallb_map. reflexivity. Qed.

Lemma entry_ok_sound f t sch :
  forallb (entry_ok f t) sch = true ->
  forall s p, In s sch -> find_name (s_name s) t = Some p -> consistent t p = true -> f p s = true.
Proof.
  rewrite forallb_forall. intros H s p Hs Hf Hc. specialize (H s Hs). unfold entry_ok in H. rewrite Hf, Hc in H. exact H.
Qed.

Lemma fields_match_parts p s :
  fields_match p s = true ->
  f_type p s = true /\ f_units p s = true /\ f_min p s = true /\ f_max p s = true /\ f_default p s = true /\ f_enum p s = true.
Proof. unfold fields_match. rewrite !andb_true_iff. tauto. Qed.

Lemma rst_match_parts p s :
  rst_match p s = true -> f_type p s = true /\ f_pref p s = true /\ f_min p s = true /\ f_max p s = true /\ f_default p s = true.
Proof. unfold rst_match. rewrite !andb_true_iff. tauto. Qed.

Lemma published_type p s :
  f_type p s = true ->
  s_type s = p_jtype p /\ (p_kind p = KFloat -> s_type s = "number"%string) /\ (p_kind p = KInt -> s_type s = "integer"%string).
Proof.
  unfold f_type, kind_jtype. intros H. apply andb_true_iff in H. destruct H as [T K]. apply String.eqb_eq in T.
  split; [exact T|]. rewrite T. split; intros Hk; rewrite Hk in K; apply String.eqb_eq, K.
Qed.

Lemma number_allows s v : s_type s = "number"%string -> schema_allows s v = schema_allows_elem s v.
Proof. unfold schema_allows. intros ->. reflexivity. Qed.

Lemma integer_allows s v :
  s_type s = "integer"%string ->
  schema_allows s v = integral v && match s_enum s with [] => schema_allows_elem s v | e => memZ (trunc v) e end.
Proof. unfold schema_allows. intros ->. reflexivity. Qed.

Lemma bounds_meaning s lo hi :
  oQ_eqb (s_min s) (Some lo) = true -> oQ_eqb (s_max s) (Some hi) = true ->
  exists a b, s_min s = Some a /\ a == lo /\ s_max s = Some b /\ b == hi.
Proof.
  (* [oQ_eqb o (Some y)] and [oQeqb o y] are convertible *)
  intros Hmin Hmax. apply oQeqb_true in Hmin, Hmax.
  destruct Hmin as [a [Ha Ea]], Hmax as [b [Hb Eb]]. exists a, b. auto.
Qed.

Lemma bounds_allow s lo hi v :
  oQ_eqb (s_min s) (Some lo) = true -> oQ_eqb (s_max s) (Some hi) = true ->
  schema_allows_elem s v = Qleb lo v && Qleb v hi.
Proof.
  intros Hmin Hmax. destruct (bounds_meaning s lo hi Hmin Hmax) as (a & b & Ha & Ea & Hb & Eb).
  unfold schema_allows_elem, Qleb. rewrite Ha, Hb. cbn [ole oge]. unfold Qleb. now rewrite Ea, Eb.
Qed.

(* float and list entries publish Min and Max themselves *)
Lemma interval_published p s :
  p_kind p = KFloat \/ p_kind p = KList -> f_min p s = true -> f_max p s = true ->
  oQ_eqb (s_min s) (Some (p_min p)) = true /\ oQ_eqb (s_max s) (Some (p_max p)) = true.
Proof. unfold f_min, f_max, lo_bound, hi_bound. intros [-> | ->] Hmin Hmax; split; assumption. Qed.

Lemma interval_allows p s v :
  p_kind p = KFloat \/ p_kind p = KList -> f_min p s = true -> f_max p s = true -> schema_allows_elem s v = in_interval p v.
Proof. intros Hk Hmin Hmax. destruct (interval_published p s Hk Hmin Hmax) as [A B]. exact (bounds_allow s _ _ v A B). Qed.

Lemma type_bounds_meaning p s :
  f_type p s = true -> f_min p s = true -> f_max p s = true ->
  s_type s = p_jtype p /\
  (p_kind p = KFloat -> exists a b, s_min s = Some a /\ a == p_min p /\ s_max s = Some b /\ b == p_max p).
Proof.
  intros Ht Hmin Hmax. split; [apply (published_type p s Ht)|].
  intros Hk. destruct (interval_published p s (or_introl Hk) Hmin Hmax) as [A B]. exact (bounds_meaning s _ _ A B).
Qed.

Lemma float_enforced p s v :
  p_kind p = KFloat -> f_type p s = true -> f_min p s = true -> f_max p s = true -> schema_allows s v = in_domain p v.
Proof.
  intros Hk Ht Hmin Hmax. destruct (published_type p s Ht) as (_ & T & _).
  rewrite (number_allows s v (T Hk)), (float_domain p v Hk). apply interval_allows; auto.
Qed.

(* lists: the first element is tested against the same interval *)
Lemma list_enforced p s v rest :
  p_kind p = KList -> fields_match p s = true ->
  read_list p v rest = if schema_allows_elem s v then LStore (v :: rest) else LKeep.
Proof.
  intros Hk H. destruct (fields_match_parts _ _ H) as (_ & _ & Hmin & Hmax & _).
  rewrite (interval_allows p s v (or_intror Hk) Hmin Hmax). apply read_list_eq.
Qed.

(* ints: a published option list is the AllowableRange itself ... *)
Lemma enum_exact p s n :
  s_enum s <> [] -> f_enum p s = true -> memZ n (s_enum s) = in_runs n (p_range p).
Proof.
  unfold f_enum. intros Hne H. destruct (s_enum s) as [|e0 e] eqn:E; [congruence|].
  apply andb_true_iff in H. destruct H as [A B]. rewrite forallb_forall in A, B.
  destruct (in_runs n (p_range p)) eqn:R.
  - apply B. apply in_runs_expand. exact R.
  - destruct (memZ n (e0 :: e)) eqn:M; [|reflexivity].
    apply memZ_In in M. rewrite (A n M) in R. discriminate.
Qed.

(* ... without one, minimum and maximum only describe its hull *)
Lemma int_hull_allows p s v lo hi :
  p_kind p = KInt -> f_min p s = true -> f_max p s = true ->
  runs_min (p_range p) = Some lo -> runs_max (p_range p) = Some hi -> integral v = true ->
  schema_allows_elem s v = (lo <=? trunc v)%Z && (trunc v <=? hi)%Z.
Proof.
  unfold f_min, f_max, lo_bound, hi_bound. intros -> Hmin Hmax Elo Ehi Hi. rewrite Elo in Hmin. rewrite Ehi in Hmax.
  rewrite (bounds_allow s (inject_Z lo) (inject_Z hi) v Hmin Hmax). apply Qleb_integral, Hi.
Qed.

Lemma int_enforced p s v :
  p_kind p = KInt -> fields_match p s = true ->
  (in_domain p v = true -> schema_allows s v = true) /\ (int_exact p s = true -> schema_allows s v = in_domain p v).
Proof.
  intros Hk H. destruct (fields_match_parts _ _ H) as (Ht & _ & Hmin & Hmax & _ & He).
  destruct (published_type p s Ht) as (_ & _ & T). rewrite (integer_allows s v (T Hk)).
  unfold in_domain, int_exact. rewrite Hk.
  destruct (integral v) eqn:Hi; cbn [andb]; [|split; [discriminate | reflexivity]].
  destruct (s_enum s) as [|e0 e] eqn:E.
  - (* no option list *)
    destruct (runs_bounds (p_range p)) as [R | (lo & hi & Elo & Ehi & Bd & _)].
    + rewrite R. split; discriminate.
    + rewrite (int_hull_allows p s v lo hi Hk Hmin Hmax Elo Ehi Hi). split.
      * intros Hr. apply Bd in Hr. apply andb_true_iff. rewrite !Z.leb_le. exact Hr.
      * (* a single run is its own hull *)
        intros X. destruct (p_range p) as [|[a b] [|]]; try discriminate X.
        injection Elo as <-. injection Ehi as <-. cbn. now rewrite orb_false_r.
  - (* option list published *)
    rewrite <- E, (enum_exact p s (trunc v)); [auto | rewrite E; discriminate | exact He].
Qed.

(* witness rows for the refuted clauses.  Gradients: only the first element is ever range-checked *)
Definition w_gradients : param :=
  mkParam "Reservoir" "Gradients" KList None None 0 (500#1) [] "degC/m" "degC/m" "TEMP_GRADIENT" false "array" "[1/20,0/1,0/1,0/1]".
Definition w_gradients_entry : sentry :=
  mkS "Gradients" "array" "degC/m" "Reservoir" None "[1/20,0/1,0/1,0/1]" (Some 0) (Some (500#1)) [] "d".

(* 'Maximum Drawdown': the reader enforces Max = 1.000001 (binary64), the schema publishes "1.0" *)
Definition w_maxdrawdown : param :=
  mkParam "WellBores" "Maximum Drawdown" KFloat (Some 1) (Some 1) 0 (4503604130970123 # 4503599627370496) []
          "" "" "PERCENT" false "number" "1/1".
Definition w_maxdrawdown_entry : sentry :=
  mkS "Maximum Drawdown" "number" "" "Well Bores" (Some 1) "1/1" (Some 0) (Some 1) [] "8a32d1010bcee2f3".

Open Scope string_scope.
Definition pinned_accepted_names : list string := [
 "Economic Model"; "Reservoir Stimulation Capital Cost"; 
 "Reservoir Stimulation Capital Cost Adjustment Factor"; "Exploration Capital Cost"; 
 "Exploration Capital Cost Adjustment Factor"; "Well Drilling and Completion Capital Cost"; 
 "Injection Well Drilling and Completion Capital Cost"; 
 "Well Drilling and Completion Capital Cost Adjustment Factor"; 
 "Injection Well Drilling and Completion Capital Cost Adjustment Factor"; "Wellfield O&M Cost"; 
 "Wellfield O&M Cost Adjustment Factor"; "Surface Plant Capital Cost"; 
 "Surface Plant Capital Cost Adjustment Factor"; "Field Gathering System Capital Cost"; 
 "Field Gathering System Capital Cost Adjustment Factor"; "Surface Plant O&M Cost"; 
 "Surface Plant O&M Cost Adjustment Factor"; "Water Cost"; "Water Cost Adjustment Factor"; 
 "Total Capital Cost"; "Total O&M Cost"; "Time steps per year"; "Fixed Charge Rate"; "Discount Rate"; 
 "Discount Initial Year Cashflow"; "Fraction of Investment in Bonds"; "Inflated Bond Interest Rate"; 
 "Inflated Equity Interest Rate"; "Inflation Rate"; "Combined Income Tax Rate"; "Gross Revenue Tax Rate"; 
 "Investment Tax Credit Rate"; "Property Tax Rate"; "Inflation Rate During Construction"; 
 "Well Drilling Cost Correlation"; "Do AddOn Calculations"; "Do Carbon Price Calculations"; 
 "Do S-DAC-GT Calculations"; "All-in Vertical Drilling Costs"; "All-in Nonvertical Drilling Costs"; 
 "Absorption Chiller Capital Cost"; "Absorption Chiller O&M Cost"; "Heat Pump Capital Cost"; 
 "Peaking Fuel Cost Rate"; "Peaking Boiler Efficiency"; "District Heating Piping Cost Rate"; 
 "Total District Heating Network Cost"; "District Heating O&M Cost"; "District Heating Network Piping Length"; 
 "District Heating Road Length"; "District Heating Land Area"; "District Heating Population"; 
 "Starting Heat Sale Price"; "Ending Heat Sale Price"; "Heat Escalation Start Year"; 
 "Heat Escalation Rate Per Year"; "Starting Electricity Sale Price"; "Ending Electricity Sale Price"; 
 "Electricity Escalation Start Year"; "Electricity Escalation Rate Per Year"; "Starting Cooling Sale Price"; 
 "Ending Cooling Sale Price"; "Cooling Escalation Start Year"; "Cooling Escalation Rate Per Year"; 
 "Starting Carbon Credit Value"; "Ending Carbon Credit Value"; "Carbon Escalation Start Year"; 
 "Carbon Escalation Rate Per Year"; "Current Grid CO2 production"; "CO2 produced by Natural Gas"; 
 "Annual License Fees Etc"; "One-time Flat License Fees Etc"; "Other Incentives"; "Tax Relief Per Year"; 
 "One-time Grants Etc"; "Fixed Internal Rate"; "CHP Electrical Plant Cost Allocation Ratio"; 
 "Production Tax Credit Electricity"; "Production Tax Credit Heat"; "Production Tax Credit Cooling"; 
 "Production Tax Credit Duration"; "Production Tax Credit Inflation Adjusted"; 
 "Estimated Jobs Created per MW of Electricity Produced"; "Operation & Maintenance Cost of Surface Plant"; 
 "Capital Cost for Surface Plant for Direct-use System"; 
 "Capital Cost for Power Plant for Electricity Generation"; "Improved Text Output File"; "HTML Output File"; 
 "Print Output to Console"; "Number of Production Wells"; "Number of Injection Wells"; 
 "Production Well Diameter"; "Injection Well Diameter"; "Ramey Production Wellbore Model"; 
 "Production Wellbore Temperature Drop"; "Injection Wellbore Temperature Gain"; 
 "Production Flow Rate per Well"; "Reservoir Impedance"; "Well Separation"; "Injection Temperature"; 
 "Reservoir Hydrostatic Pressure"; "Production Wellhead Pressure"; "Injectivity Index"; "Productivity Index"; 
 "Maximum Drawdown"; "Is AGS"; "Overpressure Percentage"; "Overpressure Depletion Rate"; 
 "Injection Reservoir Temperature"; "Injection Reservoir Depth"; "Injection Reservoir Initial Pressure"; 
 "Injection Reservoir Inflation Rate"; "Closed-loop Configuration"; "Well Geometry Configuration"; 
 "Water Thermal Conductivity"; "Heat Transfer Fluid"; "Nonvertical Length per Multilateral Section"; 
 "Nonvertical Wellbore Diameter"; "Number of Multilateral Sections"; "Multilaterals Cased"; 
 "Closed Loop Calculation Start Year"; "Reservoir Model"; "Reservoir Depth"; "Maximum Temperature"; 
 "Number of Segments"; "Gradients"; "Gradient 1"; "Gradient 2"; "Gradient 3"; "Gradient 4"; "Thicknesses"; 
 "Thickness 1"; "Thickness 2"; "Thickness 3"; "Thickness 4"; "Reservoir Volume Option"; "Fracture Shape"; 
 "Fracture Area"; "Fracture Height"; "Fracture Width"; "Number of Fractures"; "Fracture Separation"; 
 "Reservoir Volume"; "Water Loss Fraction"; "Reservoir Heat Capacity"; "Reservoir Density"; 
 "Reservoir Thermal Conductivity"; "Reservoir Permeability"; "Reservoir Porosity"; "Surface Temperature"; 
 "Cylindrical Reservoir Input Depth"; "Cylindrical Reservoir Output Depth"; "Cylindrical Reservoir Length"; 
 "Cylindrical Reservoir Radius of Effect"; "Cylindrical Reservoir Radius of Effect Factor"; "Drilled length"; 
 "AddOn Nickname"; "AddOn CAPEX"; "AddOn OPEX"; "AddOn Electricity Gained"; "AddOn Heat Gained"; 
 "AddOn Profit Gained"; "WACC"; "S-DAC-GT CAPEX"; "S-DAC-GT OPEX"; "S-DAC-GT Electrical Energy"; 
 "S-DAC-GT Thermal Energy"; "S-DAC-GT Natural Gas Price"; "S-DAC-GT CO2 Intensity of Electricity"; 
 "S-DAC-GT CO2 Intensity of Natural Gas"; "S-DAC-GT Natural Gas Energy Density"; "S-DAC-GT CAPEX Multiplier"; 
 "S-DAC-GT OPEX Multiplier"; "S-DAC-GT Thermal Energy Multiplier"; "S-DAC-GT CO2 Transportation Cost"; 
 "S-DAC-GT CO2 Storage Cost"; "S-DAC-GT CO2 Percent Energy Devoted To Process"; "Flowrate Model"; 
 "Flowrate File"; "Injection Temperature Model"; "Injection Temperature File"; "SBT Accuracy Desired"; 
 "SBT Percent Implicit Euler Scheme"; "SBT Initial Timestep Count"; "SBT Final Timestep Count"; 
 "SBT Initial to Final Timestep Transition"; "SBT Generate Wireframe Graphics"; "Vertical Section Length"; 
 "Vertical Wellbore Spacing"; "Lateral Spacing"; "Lateral Inclination Angle"; "Discretization Length"; 
 "Junction Depth"; "Lateral Endpoint Depth"; "Drawdown Parameter"; "SUTRA Annual Heat File Name"; 
 "SUTRA Heat Budget File Name"; "SUTRA Balance and Storage Well Output File Name"; "End-Use Option"; 
 "Power Plant Type"; "Circulation Pump Efficiency"; "Utilization Factor"; "End-Use Efficiency Factor"; 
 "CHP Fraction"; "CHP Bottoming Entering Temperature"; "Ambient Temperature"; "Plant Lifetime"; 
 "Surface Piping Length"; "Plant Outlet Pressure"; "Electricity Rate"; "Heat Rate"; "Construction Years"; 
 "Working Fluid Heat Capacity"; "Working Fluid Density"; "Working Fluid Thermal Conductivity"; 
 "Working Fluid Dynamic Viscosity"; "Dead-state Pressure"; "Isentropic Efficiency for CO2 Turbine"; 
 "Generator Conversion Efficiency"; "Isentropic Efficiency for CO2 Compressor"; 
 "CO2 Temperature Decline with Cooling"; "CO2 Turbine Outlet Pressure"; "Absorption Chiller COP"; 
 "District Heating Demand Option"; "District Heating Demand File Name"; 
 "District Heating Demand Data Time Resolution"; "District Heating Demand Data Column Number"; 
 "Temperature File Name"; "Temperature Data Column Number"; "Number of Housing Units"; 
 "Constant Anchor Demand"; "US Census Division"; "Heat Pump COP"; "TOUGH2 Executable Path"; 
 "TOUGH2 Model/File Name"; "Reservoir Thickness"; "Reservoir Width"; "Reservoir Output File Name"].

Definition pinned_schema_names : list string := [
 "Reservoir Model"; "Reservoir Depth"; "Maximum Temperature"; "Number of Segments"; "Gradients"; "Gradient 1"; 
 "Gradient 2"; "Gradient 3"; "Gradient 4"; "Thicknesses"; "Thickness 1"; "Thickness 2"; "Thickness 3"; 
 "Thickness 4"; "Reservoir Volume Option"; "Fracture Shape"; "Fracture Area"; "Fracture Height"; 
 "Fracture Width"; "Number of Fractures"; "Fracture Separation"; "Reservoir Volume"; "Water Loss Fraction"; 
 "Reservoir Heat Capacity"; "Reservoir Density"; "Reservoir Thermal Conductivity"; "Reservoir Permeability"; 
 "Reservoir Porosity"; "Surface Temperature"; "Drawdown Parameter"; "Cylindrical Reservoir Input Depth"; 
 "Cylindrical Reservoir Output Depth"; "Cylindrical Reservoir Length"; 
 "Cylindrical Reservoir Radius of Effect"; "Cylindrical Reservoir Radius of Effect Factor"; "Drilled length"; 
 "Flowrate Model"; "Flowrate File"; "Injection Temperature Model"; "Injection Temperature File"; 
 "SBT Accuracy Desired"; "SBT Percent Implicit Euler Scheme"; "SBT Initial Timestep Count"; 
 "SBT Final Timestep Count"; "SBT Initial to Final Timestep Transition"; "SBT Generate Wireframe Graphics"; 
 "SUTRA Annual Heat File Name"; "SUTRA Heat Budget File Name"; 
 "SUTRA Balance and Storage Well Output File Name"; "TOUGH2 Executable Path"; "TOUGH2 Model/File Name"; 
 "Reservoir Thickness"; "Reservoir Width"; "Number of Production Wells"; "Number of Injection Wells"; 
 "Production Well Diameter"; "Injection Well Diameter"; "Ramey Production Wellbore Model"; 
 "Production Wellbore Temperature Drop"; "Injection Wellbore Temperature Gain"; 
 "Production Flow Rate per Well"; "Reservoir Impedance"; "Well Separation"; "Injection Temperature"; 
 "Reservoir Hydrostatic Pressure"; "Production Wellhead Pressure"; "Injectivity Index"; "Productivity Index"; 
 "Maximum Drawdown"; "Is AGS"; "Overpressure Percentage"; "Overpressure Depletion Rate"; 
 "Injection Reservoir Temperature"; "Injection Reservoir Depth"; "Injection Reservoir Initial Pressure"; 
 "Injection Reservoir Inflation Rate"; "Closed-loop Configuration"; "Well Geometry Configuration"; 
 "Water Thermal Conductivity"; "Heat Transfer Fluid"; "Nonvertical Length per Multilateral Section"; 
 "Nonvertical Wellbore Diameter"; "Number of Multilateral Sections"; "Multilaterals Cased"; 
 "Closed Loop Calculation Start Year"; "Vertical Section Length"; "Vertical Wellbore Spacing"; 
 "Lateral Spacing"; "Lateral Inclination Angle"; "Discretization Length"; "Junction Depth"; 
 "Lateral Endpoint Depth"; "End-Use Option"; "Power Plant Type"; "Circulation Pump Efficiency"; 
 "Utilization Factor"; "End-Use Efficiency Factor"; "CHP Fraction"; "CHP Bottoming Entering Temperature"; 
 "Ambient Temperature"; "Plant Lifetime"; "Surface Piping Length"; "Plant Outlet Pressure"; 
 "Electricity Rate"; "Heat Rate"; "Construction Years"; "Working Fluid Heat Capacity"; 
 "Working Fluid Density"; "Working Fluid Thermal Conductivity"; "Working Fluid Dynamic Viscosity"; 
 "Dead-state Pressure"; "Isentropic Efficiency for CO2 Turbine"; "Generator Conversion Efficiency"; 
 "Isentropic Efficiency for CO2 Compressor"; "CO2 Temperature Decline with Cooling"; 
 "CO2 Turbine Outlet Pressure"; "Economic Model"; "Reservoir Stimulation Capital Cost"; 
 "Reservoir Stimulation Capital Cost Adjustment Factor"; "Exploration Capital Cost"; 
 "Exploration Capital Cost Adjustment Factor"; "Well Drilling and Completion Capital Cost"; 
 "Injection Well Drilling and Completion Capital Cost"; 
 "Well Drilling and Completion Capital Cost Adjustment Factor"; 
 "Injection Well Drilling and Completion Capital Cost Adjustment Factor"; "Wellfield O&M Cost"; 
 "Wellfield O&M Cost Adjustment Factor"; "Surface Plant Capital Cost"; 
 "Surface Plant Capital Cost Adjustment Factor"; "Field Gathering System Capital Cost"; 
 "Field Gathering System Capital Cost Adjustment Factor"; "Surface Plant O&M Cost"; 
 "Surface Plant O&M Cost Adjustment Factor"; "Water Cost"; "Water Cost Adjustment Factor"; 
 "Total Capital Cost"; "Total O&M Cost"; "Time steps per year"; "Fixed Charge Rate"; "Discount Rate"; 
 "Discount Initial Year Cashflow"; "Fraction of Investment in Bonds"; "Inflated Bond Interest Rate"; 
 "Inflated Equity Interest Rate"; "Inflation Rate"; "Combined Income Tax Rate"; "Gross Revenue Tax Rate"; 
 "Investment Tax Credit Rate"; "Property Tax Rate"; "Inflation Rate During Construction"; 
 "Well Drilling Cost Correlation"; "Do AddOn Calculations"; "Do Carbon Price Calculations"; 
 "Do S-DAC-GT Calculations"; "All-in Vertical Drilling Costs"; "All-in Nonvertical Drilling Costs"; 
 "Absorption Chiller Capital Cost"; "Absorption Chiller O&M Cost"; "Heat Pump Capital Cost"; 
 "Peaking Fuel Cost Rate"; "Peaking Boiler Efficiency"; "District Heating Piping Cost Rate"; 
 "Total District Heating Network Cost"; "District Heating O&M Cost"; "District Heating Network Piping Length"; 
 "District Heating Road Length"; "District Heating Land Area"; "District Heating Population"; 
 "Starting Heat Sale Price"; "Ending Heat Sale Price"; "Heat Escalation Start Year"; 
 "Heat Escalation Rate Per Year"; "Starting Electricity Sale Price"; "Ending Electricity Sale Price"; 
 "Electricity Escalation Start Year"; "Electricity Escalation Rate Per Year"; "Starting Cooling Sale Price"; 
 "Ending Cooling Sale Price"; "Cooling Escalation Start Year"; "Cooling Escalation Rate Per Year"; 
 "Starting Carbon Credit Value"; "Ending Carbon Credit Value"; "Carbon Escalation Start Year"; 
 "Carbon Escalation Rate Per Year"; "Current Grid CO2 production"; "CO2 produced by Natural Gas"; 
 "Annual License Fees Etc"; "One-time Flat License Fees Etc"; "Other Incentives"; "Tax Relief Per Year"; 
 "One-time Grants Etc"; "Fixed Internal Rate"; "CHP Electrical Plant Cost Allocation Ratio"; 
 "Production Tax Credit Electricity"; "Production Tax Credit Heat"; "Production Tax Credit Cooling"; 
 "Production Tax Credit Duration"; "Production Tax Credit Inflation Adjusted"; 
 "Estimated Jobs Created per MW of Electricity Produced"; "Operation & Maintenance Cost of Surface Plant"; 
 "Capital Cost for Surface Plant for Direct-use System"; 
 "Capital Cost for Power Plant for Electricity Generation"; "AddOn Nickname"; "AddOn CAPEX"; "AddOn OPEX"; 
 "AddOn Electricity Gained"; "AddOn Heat Gained"; "AddOn Profit Gained"].
