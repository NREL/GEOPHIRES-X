(* Proofs/TokenReaderProofs.v - lemmas about Model/TokenReader.v: the text of a value (C07) *)
From Coq Require Import QArith ZArith List String Bool Lia.
From Verif Require Import Base.Flat Base.ParamRec Model.RangeReader Proofs.RangeReaderProofs Model.TokenReader.
Import ListNotations.
Open Scope Q_scope.

Lemma pkind_eqb_eq a b : pkind_eqb a b = true -> a = b.
Proof. destruct a, b; (reflexivity || discriminate). Qed.

Lemma lower_lift o : lower (lift o) = o.
Proof. destruct o; reflexivity. Qed.

Lemma read_tok_num p t v : tok_num t = Some v -> read_tok p t = lift (read_param p v).
Proof. unfold read_tok. intros ->. reflexivity. Qed.

Lemma tspec_nonnumber p t o :
  tok_num t = None -> tspec_ok p t o = match o with TRejectNamed n => String.eqb n (p_name p) | _ => false end.
Proof. unfold tspec_ok. intros ->. reflexivity. Qed.

Lemma option_lenient nm p t : read_option false nm None p t = read_tok p t.
Proof. unfold read_option. destruct (read_tok p t), (is_canon t); reflexivity. Qed.

Lemma in_runs_members n rs : in_runs n rs = true <-> In n (runs_members rs).
Proof.
  unfold in_runs, runs_members. rewrite existsb_exists, in_flat_map.
  split; intros [r [Hr H]]; exists r; (split; [exact Hr|]).
  - apply andb_true_iff in H. rewrite !Z.leb_le in H. apply in_map_iff.
    exists (Z.to_nat (n - fst r)). split; [lia|]. apply in_seq. lia.
  - apply in_map_iff in H. destruct H as [k [<- Hk]]. apply in_seq in Hk. apply andb_true_iff. rewrite !Z.leb_le. lia.
Qed.

Lemma memZb_In n l : memZb n l = true <-> In n l.
Proof. apply existsb_eq_In, Z.eqb_eq. Qed.

Lemma option_conversion_total t i strict nm e ms :
  option_ok t (i, strict, nm, e, ms) = true ->
  let p := nth i t dummy_param in
  forall n, in_runs n (p_range p) = true -> memZb n ms = true.
Proof.
  cbn. intros H n R. apply andb_true_iff in H. destruct H as [_ B]. rewrite forallb_forall in B.
  apply B, in_runs_members, R.
Qed.

Lemma option_accept_is_member t i strict nm e ms n w :
  option_ok t (i, strict, nm, e, ms) = true -> read_tok (nth i t dummy_param) (TCanon n) = TAccept w -> memZb n ms = true.
Proof.
  intros H Hr. apply (option_conversion_total t i strict nm e ms H n).
  cbn in H. apply andb_true_iff in H. destruct H as [K _]. apply pkind_eqb_eq in K.
  rewrite (read_tok_num _ (TCanon n) _ eq_refl) in Hr. destruct (read_param _ _) eqn:Rp; try discriminate.
  destruct (accept_int_is_trunc _ _ _ K Rp) as [_ Hin]. now rewrite trunc_inject in Hin.
Qed.

(* when the enum label contains the parameter's name, a non-canonical text ("4.0") that ReadParameter lets through is
   at least rejected by name *)
Lemma option_strict_named p t :
  tok_num t <> None -> is_canon t = false ->
  (exists v, read_tok p t = TAccept v) \/ read_tok p t = TUnchanged ->
  read_option true true None p t = TRejectNamed (p_name p).
Proof. intros _ Hc [[v H]|H]; unfold read_option; rewrite H, Hc; reflexivity. Qed.

(* witness rows for the refuted option clauses, copied from the declarations of Economics / WellBores / Reservoir *)
Definition w_econ_model : param :=
  mkParam "Economics" "Economic Model" KInt (Some (2#1)) (Some (2#1)) 0 0 [(1, 4)%Z] "" "" "NONE" true "integer" "2/1".
Definition w_configuration : param :=
  mkParam "WellBores" "Well Geometry Configuration" KInt (Some (3#1)) (Some (3#1)) 0 0 [(1, 5)%Z] "" "" "NONE" true "integer" "3/1".
Definition w_fracture_shape : param :=
  mkParam "Reservoir" "Fracture Shape" KInt (Some (1#1)) (Some (1#1)) 0 0 [(1, 4)%Z] "" "" "NONE" false "integer" "1/1".

Lemma bool_words_disjoint : forallb (fun s => negb (in_words s false_words)) true_words = true.
Proof. vm_compute. reflexivity. Qed.
