(* Proofs/TokenizerProofs.v - Model/Tokenizer.v (C12, code points 0..255) is Model/UTokenizer.v restricted to the
   texts [us s]: [us] carries every function of the one to the same function of the other (first part), so the
   results about it are those of Proofs/UTokenizerProofs.v read through [us] (second part). *)
From Coq Require Import String Ascii List Bool Arith Permutation Lia.
From Verif Require Import Model.Tokenizer.
Import ListNotations.
Open Scope string_scope.
From Coq Require Import NArith ZifyBool FinFun.
From Verif Require Base.UStr Model.UTokenizer Proofs.UTokenizerProofs.
Import UStr.
Module U := Verif.Model.UTokenizer.
Module UP := Verif.Proofs.UTokenizerProofs.

Fixpoint su (u : ustring) : string :=
  match u with [] => "" | c :: r => String (ascii_of_N c) (su r) end.

Lemma su_us s : su (us s) = s.
Proof. induction s as [|c r IH]; cbn; [reflexivity|]. now rewrite ascii_N_embedding, IH. Qed.

Lemma us_inj : Injective us.
Proof. intros a b E. rewrite <- (su_us a), E. apply su_us. Qed.

Lemma us_app a b : us (a ++ b) = (us a ++ us b)%list.
Proof. induction a; cbn; congruence. Qed.

Lemma us_cons c s : us (String c s) = N_of_ascii c :: us s.
Proof. reflexivity. Qed.

#[local] Hint Rewrite us_app us_cons : us.

Lemma eqb_N a b : UA.eqb (N_of_ascii a) (N_of_ascii b) = Ascii.eqb a b.
Proof.
  destruct (Ascii.eqb_spec a b) as [->|N]; [apply UA.eqb_refl|]. apply UA.eqb_neq. intros E. apply N.
  now rewrite <- (ascii_N_embedding a), E, ascii_N_embedding.
Qed.

Lemma eqb_us a b : US.eqb (us a) (us b) = String.eqb a b.
Proof.
  destruct (String.eqb_spec a b) as [->|N]; [apply US.eqb_refl|].
  destruct (US.eqb_spec (us a) (us b)) as [E|]; [now apply us_inj in E | reflexivity].
Qed.

Definition usp (p : string * string) : ustring * ustring := (us (fst p), us (snd p)).
Definition ue (e : entry) : U.entry :=
  U.Build_entry (us (e_name e)) (us (e_sval e)) (us (e_comment e)) (us (e_raw e)).
Definition ud (d : dict) : U.dict := map (fun p => (us (fst p), ue (snd p))) d.

Lemma usp_inj : Injective usp.
Proof. intros [a b] [a' b'] E. injection E as E1 E2. apply us_inj in E1, E2. congruence. Qed.

Lemma ue_inj : Injective ue.
Proof. intros [a b c d] [a' b' c' d'] E. injection E as E1 E2 E3 E4. apply us_inj in E1, E2, E3, E4. congruence. Qed.

Lemma map_inj {A B} (f : A -> B) : Injective f -> Injective (map f).
Proof.
  intros I l. induction l as [|a l IH]; intros [|b l'] E; try discriminate; [reflexivity|].
  injection E as E1 E2. f_equal; auto.
Qed.

Lemma opt_inj {A B} (f : A -> B) : Injective f -> Injective (option_map f).
Proof. intros I [a|] [b|] E; try discriminate; [|reflexivity]. injection E as E. f_equal. auto. Qed.

Lemma filter_us (p : string -> bool) l : filter (fun u => p (su u)) (map us l) = map us (filter p l).
Proof. induction l as [|a l IH]; cbn; [reflexivity|]. rewrite su_us, IH. now destruct (p a). Qed.

Lemma is_ws_us c : U.is_ws (N_of_ascii c) = is_ws c.
Proof. unfold U.is_ws, is_ws, nat_of_ascii. pose proof (N_ascii_bounded c). lia. Qed.

Lemma is_empty_us s : U.is_empty (us s) = is_empty s.
Proof. now destruct s. Qed.

Lemma allws_us s : U.allws (us s) = allws s.
Proof. induction s as [|c r IH]; cbn; [reflexivity|]. now rewrite is_ws_us, IH. Qed.

Lemma nochar_us x s : U.nochar (N_of_ascii x) (us s) = nochar x s.
Proof. induction s as [|c r IH]; cbn; [reflexivity|]. now rewrite eqb_N, IH. Qed.

Lemma nocomma_us s : U.nocomma (us s) = nocomma s.
Proof. exact (nochar_us COMMA s). Qed.

Lemma lstrip_us s : U.lstrip (us s) = us (lstrip s).
Proof. induction s as [|c r IH]; cbn; [reflexivity|]. rewrite is_ws_us. now destruct (is_ws c). Qed.

Lemma rstrip_us s : U.rstrip (us s) = us (rstrip s).
Proof.
  induction s as [|c r IH]; cbn; [reflexivity|]. rewrite is_ws_us, IH, is_empty_us.
  now destruct (is_ws c && is_empty (rstrip r)).
Qed.

Lemma strip_us s : U.strip (us s) = us (strip s).
Proof. unfold U.strip, strip. now rewrite lstrip_us, rstrip_us. Qed.

Lemma split_on_us x s : U.split_on (N_of_ascii x) (us s) = map us (split_on x s).
Proof.
  induction s as [|c r IH]; cbn; [reflexivity|]. rewrite eqb_N, IH.
  destruct (Ascii.eqb c x); [reflexivity|]. now destruct (split_on x r).
Qed.

Lemma cat_us ls : U.cat (map us ls) = us (cat ls).
Proof. induction ls as [|a r IH]; cbn; [reflexivity|]. now rewrite us_app, IH. Qed.

(* [String.prefix] tests with [ascii_dec], the other model with [eqb] on the first one or two characters *)
Lemma is_comment_us s : U.is_comment (us s) = is_comment s.
Proof.
  assert (P : forall (a c : ascii) (X : bool), (if ascii_dec a c then X else false) = Ascii.eqb c a && X).
  { intros a c X. destruct (ascii_dec a c) as [->|N]; [now rewrite Ascii.eqb_refl|].
    destruct (Ascii.eqb_spec c a); [congruence | reflexivity]. }
  assert (Q : forall r, String.prefix "" r = true) by now intros [|].
  destruct s as [|c r]; [reflexivity|]. unfold is_comment. cbn [us U.is_comment String.prefix].
  rewrite !P, !Q, !andb_true_r.
  change U.HASH with (N_of_ascii "#"). change U.STAR with (N_of_ascii "*"). change U.DASH with (N_of_ascii "-").
  rewrite !eqb_N.
  (* both sides are now built from the tests c = "#", c = "*", c = "-" and, on a second character, c2 = "-";
     they differ in the order of the disjuncts *)
  destruct r as [|c2 r2]; cbn [us String.prefix].
  - destruct (Ascii.eqb c "#"), (Ascii.eqb c "*"), (Ascii.eqb c "-"); reflexivity.
  - rewrite P, Q, eqb_N, andb_true_r.
    destruct (Ascii.eqb c "#"), (Ascii.eqb c "*"), (Ascii.eqb c "-"), (Ascii.eqb c2 "-"); reflexivity.
Qed.

Lemma comment_of_us l : U.comment_of (map us l) = us (comment_of l).
Proof. destruct l as [|a [|b r]]; [reflexivity | apply strip_us | apply (cat_us (a :: b :: r))]. Qed.

Lemma fields_us l : U.fields (us l) = option_map ue (fields l).
Proof.
  unfold U.fields, fields. change U.COMMA with (N_of_ascii COMMA). rewrite split_on_us.
  destruct (split_on COMMA l) as [|d [|v rest]]; cbn [map option_map]; try reflexivity.
  unfold ue. cbn. now rewrite !strip_us, comment_of_us.
Qed.

Lemma parse_line_us l : U.parse_line (us l) = option_map ue (parse_line l).
Proof. unfold U.parse_line, parse_line. rewrite strip_us, is_comment_us, fields_us. now destruct (is_comment (strip l)). Qed.

Lemma name_val_us l : U.name_val (U.parse_line (us l)) = option_map usp (name_val (parse_line l)).
Proof. rewrite parse_line_us. now destruct (parse_line l). Qed.

Lemma parse_lines_us ls : U.parse_lines (map us ls) = map ue (parse_lines ls).
Proof.
  unfold U.parse_lines, parse_lines. induction ls as [|l r IH]; cbn [map flat_map]; [reflexivity|].
  rewrite parse_line_us, IH, map_app. now destruct (parse_line l).
Qed.

Lemma names_us es : map U.e_name (map ue es) = map us (map e_name es).
Proof. now rewrite !map_map. Qed.

Lemma dict_set_us k e d : U.dict_set (us k) (ue e) (ud d) = ud (dict_set k e d).
Proof.
  unfold ud. induction d as [|[k' e'] r IH]; cbn; [reflexivity|]. rewrite eqb_us.
  destruct (String.eqb k k'); cbn; [reflexivity|]. now rewrite IH.
Qed.

Lemma dict_get_us k d : U.dict_get (us k) (ud d) = option_map ue (dict_get k d).
Proof. unfold ud. induction d as [|[k' e'] r IH]; cbn; [reflexivity|]. rewrite eqb_us. now destruct (String.eqb k k'). Qed.

Lemma build_from_us es : forall d, U.build_from (ud d) (map ue es) = ud (build_from d es).
Proof.
  unfold U.build_from, build_from. induction es as [|e r IH]; intros d; [reflexivity|]. cbn [map fold_left].
  change (U.e_name (ue e)) with (us (e_name e)). rewrite dict_set_us. apply IH.
Qed.

Lemma find_last_us k es : U.find_last (us k) (map ue es) = option_map ue (find_last k es).
Proof.
  induction es as [|e r IH]; cbn [map U.find_last find_last]; [reflexivity|]. rewrite IH.
  destruct (find_last k r); [reflexivity|]. change (U.e_name (ue e)) with (us (e_name e)). rewrite eqb_us.
  now destruct (String.eqb k (e_name e)).
Qed.

Lemma filter_name_us k es :
  filter (fun e => US.eqb (us k) (U.e_name e)) (map ue es) = map ue (filter (fun e => String.eqb k (e_name e)) es).
Proof.
  induction es as [|e r IH]; cbn [map filter]; [reflexivity|]. change (U.e_name (ue e)) with (us (e_name e)).
  rewrite eqb_us, IH. now destruct (String.eqb k (e_name e)).
Qed.

Lemma keys_us d : U.keys (ud d) = map us (keys d).
Proof. unfold U.keys, keys, ud. now rewrite !map_map. Qed.

Lemma read_lines_us ls : U.read_lines (map us ls) = ud (read_lines ls).
Proof. unfold U.read_lines, read_lines. rewrite parse_lines_us. apply (build_from_us _ []). Qed.

Lemma dict_get_lines_us k ls : U.dict_get (us k) (U.read_lines (map us ls)) = option_map ue (dict_get k (read_lines ls)).
Proof. rewrite read_lines_us. apply dict_get_us. Qed.

Lemma univ_us s : forall f, U.univ f (us s) = us (univ f s).
Proof.
  induction s as [|c r IH]; intros f; cbn [us U.univ univ]; [reflexivity|].
  change U.LF with (N_of_ascii LF). change U.CR with (N_of_ascii CR). rewrite !eqb_N, !IH.
  destruct (Ascii.eqb c LF); [now destruct f|]. now destruct (Ascii.eqb c CR).
Qed.

Lemma readlines_us s : U.readlines (us s) = map us (readlines s).
Proof.
  induction s as [|c r IH]; cbn [us U.readlines readlines map]; [reflexivity|].
  change U.LF with (N_of_ascii LF). rewrite eqb_N, IH. destruct (Ascii.eqb c LF); [reflexivity|]. now destruct (readlines r).
Qed.

Lemma read_text_us t : U.read_text (us t) = ud (read_text t).
Proof. unfold U.read_text, read_text, U.universal, universal. now rewrite univ_us, readlines_us, read_lines_us. Qed.

Lemma dict_get_text_us k t : U.dict_get (us k) (U.read_text (us t)) = option_map ue (dict_get k (read_text t)).
Proof. rewrite read_text_us. apply dict_get_us. Qed.

Lemma complete_us s : U.complete (us s) = complete s.
Proof.
  induction s as [|c r IH]; cbn [us U.complete complete]; [reflexivity|].
  change U.LF with (N_of_ascii LF). now rewrite is_empty_us, eqb_N, IH.
Qed.

Lemma param_lines_us ps : U.cat (map U.param_line (map usp ps)) = us (cat (map param_line ps)).
Proof.
  induction ps as [|p r IH]; cbn [map U.cat cat]; [reflexivity|]. rewrite IH, us_app. f_equal.
  unfold U.param_line, param_line. cbn [usp fst snd]. now rewrite !us_app.
Qed.

Lemma client_text_us base ps : U.client_text (us base) (map usp ps) = us (client_text base ps).
Proof.
  unfold U.client_text, client_text, U.universal, universal. cbv zeta. rewrite univ_us, complete_us, param_lines_us.
  destruct (complete (univ false base)); now rewrite !us_app.
Qed.

Lemma clean_param_us p : U.clean_param (usp p) = clean_param p.
Proof.
  unfold U.clean_param, clean_param, U.noeol, noeol, U.nocomma, nocomma. cbn [usp fst snd].
  change U.LF with (N_of_ascii LF). change U.CR with (N_of_ascii CR). change U.COMMA with (N_of_ascii COMMA).
  now rewrite !nochar_us, strip_us, eqb_us, lstrip_us, is_comment_us, is_empty_us.
Qed.

(* "the later text wins" has the same shape on both sides of [ue] *)
Lemma or_else_map {A B} (f : A -> B) a b :
  option_map f (match a with Some e => Some e | None => b end)
  = match option_map f a with Some e => Some e | None => option_map f b end.
Proof. now destruct a. Qed.

Lemma rstrip_empty_allws s : rstrip s = "" -> allws s = true.
Proof. intros H. rewrite <- allws_us. apply UP.rstrip_empty_allws. now rewrite rstrip_us, H. Qed.

Lemma decorated_line p1 p2 p3 p4 d v c :
  allws p1 = true -> allws p2 = true -> allws p3 = true -> allws p4 = true ->
  nocomma d = true -> nocomma v = true ->
  name_val (parse_line (p1 ++ d ++ p2 ++ String COMMA (p3 ++ v ++ p4 ++ String COMMA c)))
  = name_val (parse_line (d ++ String COMMA v)).
Proof.
  intros H1 H2 H3 H4 Hd Hv. apply (opt_inj usp usp_inj). rewrite <- !name_val_us. autorewrite with us.
  apply UP.decorated_line; rewrite ?allws_us, ?nocomma_us; assumption.
Qed.

Lemma ignored_line l1 l2 c : parse_line c = None -> read_lines (l1 ++ c :: l2)%list = read_lines (l1 ++ l2)%list.
Proof. intros H. unfold read_lines, parse_lines. rewrite !flat_map_app. cbn [flat_map]. now rewrite H. Qed.

Lemma lookup_is_last ls k : dict_get k (read_lines ls) = find_last k (parse_lines ls).
Proof. apply (opt_inj ue ue_inj). rewrite <- dict_get_lines_us, <- find_last_us, <- parse_lines_us. apply UP.read_lines_get. Qed.

Lemma permutation_invariance ls ls' : Permutation ls ls' -> NoDup (map e_name (parse_lines ls)) ->
  forall k, dict_get k (read_lines ls) = dict_get k (read_lines ls').
Proof.
  intros P ND k. apply (opt_inj ue ue_inj). rewrite <- !dict_get_lines_us.
  apply UP.permutation_invariance; [now apply Permutation_map|].
  rewrite parse_lines_us, names_us. now apply Injective_map_NoDup; [apply us_inj|].
Qed.

Lemma reorder_with_duplicates ls ls' k :
  filter (fun e => String.eqb k (e_name e)) (parse_lines ls) = filter (fun e => String.eqb k (e_name e)) (parse_lines ls') ->
  dict_get k (read_lines ls) = dict_get k (read_lines ls').
Proof.
  intros H. apply (opt_inj ue ue_inj). rewrite <- !dict_get_lines_us. apply UP.reorder_with_duplicates.
  now rewrite !parse_lines_us, !filter_name_us, H.
Qed.

Lemma block_order (p : string -> bool) ls ls' :
  filter p (map e_name (parse_lines ls)) = filter p (map e_name (parse_lines ls')) ->
  filter p (keys (read_lines ls)) = filter p (keys (read_lines ls')).
Proof.
  intros H. apply (map_inj us us_inj). rewrite <- !filter_us, <- !keys_us, <- !read_lines_us. apply UP.block_order_preserved.
  now rewrite !parse_lines_us, !names_us, !filter_us, H.
Qed.

Lemma ignored_kinds l1 l2 c :
  (allws c = true \/ nocomma c = true \/
   exists p m x, allws p = true /\ (m = "#" \/ m = "--" \/ m = "*") /\ c = p ++ m ++ x) ->
  read_lines (l1 ++ c :: l2)%list = read_lines (l1 ++ l2)%list.
Proof.
  intros H. apply ignored_line. assert (E : U.parse_line (us c) = None); [|rewrite parse_line_us in E; now destruct (parse_line c)].
  destruct H as [H | [H | (p & m & x & Hp & Hm & ->)]].
  - apply UP.blank_line. now rewrite allws_us.
  - apply UP.commaless_line. now rewrite nocomma_us.
  - rewrite !us_app. apply UP.comment_line; [now rewrite allws_us|].
    destruct Hm as [-> | [-> | ->]]; [left | right; left | right; right]; reflexivity.
Qed.

Lemma complete_app v w : complete v = true -> complete w = true -> complete (v ++ w) = true.
Proof. rewrite <- !complete_us, us_app. apply UP.complete_app. Qed.

Lemma read_text_append b x k :
  dict_get k (read_text (b ++ String LF x)) =
  match dict_get k (read_text x) with Some e => Some e | None => dict_get k (read_text (b ++ String LF "")) end.
Proof.
  apply (opt_inj ue ue_inj). rewrite or_else_map, <- !dict_get_text_us. autorewrite with us. apply UP.read_text_append.
Qed.

Lemma client_override base params k :
  dict_get k (read_text (client_text base params)) =
  match dict_get k (read_text (cat (map param_line params))) with
  | Some e => Some e
  | None => dict_get k (read_text base)
  end.
Proof.
  apply (opt_inj ue ue_inj). rewrite or_else_map, <- !dict_get_text_us, <- client_text_us, <- param_lines_us. apply UP.client_override.
Qed.

Lemma client_param_value params k v :
  Forall (fun p => clean_param p = true) params -> NoDup (map fst params) -> In (k, v) params ->
  option_map e_sval (dict_get k (read_text (cat (map param_line params)))) = Some (strip v).
Proof.
  intros F ND I. apply (opt_inj us us_inj).
  transitivity (option_map U.e_sval (option_map ue (dict_get k (read_text (cat (map param_line params)))))).
  { now destruct (dict_get k (read_text (cat (map param_line params)))). }
  rewrite <- dict_get_text_us, <- param_lines_us. cbn [option_map]. rewrite <- strip_us. apply UP.client_param_value.
  - apply Forall_map. eapply Forall_impl; [|exact F]. intros p. now rewrite clean_param_us.
  - rewrite map_map. change (NoDup (map (fun p => us (fst p)) params)). rewrite <- map_map.
    now apply Injective_map_NoDup; [apply us_inj|].
  - exact (in_map usp _ _ I).
Qed.

Lemma client_override_counterexample : exists (base : string) (params : list (string * string)) (k v : string),
  In (k, v) params /\ clean_param (k, v) = true /\ dict_get k (read_text (client_text_pinned base params)) = None
  /\ option_map e_sval (dict_get "A" (read_text (client_text_pinned base params))) = Some "1B".
Proof. exists "A, 1", [("B", "2")], "B", "2". repeat split; vm_compute; auto. Qed.
