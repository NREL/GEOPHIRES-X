(* Proofs/UTokenizerProofs.v - lemmas about Model/UTokenizer.v (C12): the algebra of strip and split, how one line reads,
   the dictionary as "last occurrence wins", line endings, the client's append, list-valued lines, the caching client. *)
From Coq Require Import String.
From Coq Require Import NArith List Bool Arith Permutation Lia.
From Verif Require Import Base.UStr Model.UTokenizer.
Import ListNotations.
Open Scope N_scope.

Notation string := ustring (only parsing).
Notation String := cons (only parsing).
Notation EmptyString := nil (only parsing).
Notation ascii := N (only parsing).

Lemma allws_app a b : allws (a ++ b) = allws a && allws b.
Proof. induction a; cbn; [reflexivity|]. rewrite IHa. now rewrite andb_assoc. Qed.

Lemma nochar_app x a b : nochar x (a ++ b) = nochar x a && nochar x b.
Proof. induction a; cbn; [reflexivity|]. rewrite IHa. now rewrite andb_assoc. Qed.

Lemma is_empty_app_cons a c b : is_empty (a ++ String c b) = false.
Proof. destruct a; reflexivity. Qed.

Lemma lstrip_app_ws p s : allws p = true -> lstrip (p ++ s) = lstrip s.
Proof. induction p; cbn; [reflexivity|]. intros H. apply andb_prop in H as [H1 H2]. rewrite H1. auto. Qed.

Lemma lstrip_allws p : allws p = true -> lstrip p = [].
Proof. intros H. rewrite <- (app_nil_r p). now rewrite lstrip_app_ws. Qed.

Lemma lstrip_nonws c r : is_ws c = false -> lstrip (String c r) = String c r.
Proof. cbn. now intros ->. Qed.

Lemma lstrip_app_nonws a c b : is_ws c = false -> lstrip (a ++ String c b) = lstrip a ++ String c b.
Proof. intros H. induction a as [|x a IH]; cbn; [now rewrite H|]. destruct (is_ws x); [exact IH | reflexivity]. Qed.

Lemma lstrip_idem s : lstrip (lstrip s) = lstrip s.
Proof. induction s as [|c r IH]; cbn; [reflexivity|]. destruct (is_ws c) eqn:E; [exact IH|]. cbn. now rewrite E. Qed.

Lemma lstrip_cases s : allws s = true \/ exists w c r, allws w = true /\ is_ws c = false /\ s = w ++ String c r.
Proof.
  induction s as [|c r IH]; [now left|]. destruct (is_ws c) eqn:E; [|right; now exists [], c, r].
  destruct IH as [H | (w & c' & r' & Hw & Hc & ->)]; [left | right; exists (c :: w), c', r']; cbn; now rewrite E.
Qed.

Lemma nochar_lstrip x s : nochar x s = true -> nochar x (lstrip s) = true.
Proof. induction s as [|c r IH]; cbn; [reflexivity|]. intros H. destruct (is_ws c); [|exact H].
  apply andb_prop in H as [_ H]. auto. Qed.

Lemma rstrip_allws p : allws p = true -> rstrip p = [].
Proof. induction p; cbn; [reflexivity|]. intros H. apply andb_prop in H as [H1 H2]. rewrite (IHp H2), H1. reflexivity. Qed.

Lemma rstrip_app_ws s p : allws p = true -> rstrip (s ++ p) = rstrip s.
Proof. intros H. induction s as [|c r IH]; cbn; [now apply rstrip_allws|]. now rewrite IH. Qed.

Lemma rstrip_nonws c r : is_ws c = false -> rstrip (String c r) = String c (rstrip r).
Proof. cbn. now intros ->. Qed.

Lemma rstrip_app_nonws a c b : is_ws c = false -> rstrip (a ++ String c b) = a ++ String c (rstrip b).
Proof. intros H. induction a as [|x a IH]; cbn [app]; [now apply rstrip_nonws|].
  cbn [rstrip]. rewrite IH, is_empty_app_cons, andb_false_r. reflexivity. Qed.

Lemma rstrip_empty_allws s : rstrip s = [] -> allws s = true.
Proof. induction s as [|c r IH]; cbn; [reflexivity|]. destruct (is_ws c); cbn; [|discriminate].
  destruct (rstrip r) eqn:E; cbn; [intros _; now apply IH | discriminate]. Qed.

Lemma nochar_rstrip x s : nochar x s = true -> nochar x (rstrip s) = true.
Proof. induction s as [|c r IH]; cbn; [reflexivity|]. intros H. apply andb_prop in H as [H1 H2].
  destruct (is_ws c && is_empty (rstrip r)); cbn; [reflexivity|]. rewrite H1. cbn. auto. Qed.

Lemma lstrip_rstrip_comm s : lstrip (rstrip s) = rstrip (lstrip s).
Proof.
  induction s as [|c r IH]; [reflexivity|]. cbn [lstrip rstrip]. destruct (is_ws c) eqn:E; cbn [andb].
  - destruct (is_empty (rstrip r)) eqn:Er.
    + destruct (rstrip r) eqn:E2; [|discriminate]. rewrite <- IH. reflexivity.
    + cbn [lstrip]. rewrite E. exact IH.
  - cbn [lstrip rstrip]. rewrite E. reflexivity.
Qed.

Lemma rstrip_idem s : rstrip (rstrip s) = rstrip s.
Proof.
  induction s as [|c r IH]; [reflexivity|]. cbn [rstrip]. destruct (is_ws c && is_empty (rstrip r)) eqn:E; [reflexivity|].
  cbn [rstrip]. rewrite IH, E. reflexivity.
Qed.

Lemma strip_alt s : strip s = lstrip (rstrip s).
Proof. unfold strip. now rewrite lstrip_rstrip_comm. Qed.

Lemma strip_pad p s q : allws p = true -> allws q = true -> strip (p ++ s ++ q) = strip s.
Proof. intros Hp Hq. unfold strip. rewrite lstrip_app_ws by assumption.
  rewrite <- !lstrip_rstrip_comm, rstrip_app_ws by assumption. reflexivity. Qed.

Lemma strip_app_ws s q : allws q = true -> strip (s ++ q) = strip s.
Proof. intros Hq. apply (strip_pad [] s q); auto. Qed.

Lemma strip_lstrip s : strip (lstrip s) = strip s.
Proof. unfold strip. now rewrite lstrip_idem. Qed.

Lemma strip_rstrip s : strip (rstrip s) = strip s.
Proof. rewrite !strip_alt. now rewrite rstrip_idem. Qed.

Lemma strip_allws s : allws s = true -> strip s = [].
Proof. intros H. unfold strip. now rewrite lstrip_allws. Qed.

Lemma is_ws_comma : is_ws COMMA = false. Proof. reflexivity. Qed.

Lemma strip_comma a b : strip (a ++ String COMMA b) = lstrip a ++ String COMMA (rstrip b).
Proof. unfold strip. rewrite lstrip_app_nonws by apply is_ws_comma. apply rstrip_app_nonws, is_ws_comma. Qed.

Lemma split_on_nochar x s : nochar x s = true -> split_on x s = [s].
Proof. induction s as [|c r IH]; cbn; [reflexivity|]. intros H. apply andb_prop in H as [H1 H2].
  apply negb_true_iff in H1. rewrite H1, (IH H2). reflexivity. Qed.

Lemma split_on_nonempty x s : split_on x s <> [].
Proof. induction s as [|c r IH]; cbn; [discriminate|]. destruct (UA.eqb c x); [discriminate|]. destruct (split_on x r); discriminate. Qed.

Lemma split_on_app_gen x a b : split_on x (a ++ x :: b) = (split_on x a ++ split_on x b)%list.
Proof.
  induction a as [|c r IH]; cbn [app split_on].
  - now rewrite UA.eqb_refl.
  - destruct (UA.eqb c x); [now rewrite IH|]. rewrite IH.
    destruct (split_on x r) as [|h t] eqn:E; [now apply split_on_nonempty in E | reflexivity].
Qed.

Lemma split_on_app x a b : nochar x a = true -> split_on x (a ++ String x b) = a :: split_on x b.
Proof. intros H. now rewrite split_on_app_gen, split_on_nochar. Qed.

(* comment detection looks at the first two characters: nothing after the first comma matters ... *)
Lemma is_comment_comma s X : is_comment (s ++ String COMMA X) = is_comment (s ++ [COMMA]).
Proof. destruct s as [|a [|b r]]; reflexivity. Qed.

(* ... nor does whitespace around the name (a whitespace character after a lone "-" is not a second "-") *)
Lemma is_comment_pad p1 d p2 : allws p1 = true -> allws p2 = true ->
  is_comment (lstrip (p1 ++ d ++ p2) ++ [COMMA]) = is_comment (lstrip d ++ [COMMA]).
Proof.
  intros H1 H2. rewrite lstrip_app_ws by assumption.
  destruct (lstrip_cases d) as [Hd | (w & c & r & Hw & Hc & ->)].
  - rewrite !lstrip_allws by (try rewrite allws_app, Hd; assumption). reflexivity.
  - rewrite <- app_assoc, !(lstrip_app_ws w) by assumption. cbn [app]. rewrite !lstrip_nonws by assumption.
    destruct r as [|b r]; [|reflexivity]. destruct p2 as [|x q]; [reflexivity|].
    cbn in H2. apply andb_prop in H2 as [Hx _]. cbn [app is_comment].
    destruct (UA.eqb_spec x DASH) as [->|N0]; [vm_compute in Hx; discriminate Hx | reflexivity].
Qed.

Lemma fields_two a b : nocomma a = true -> nocomma b = true ->
  core (fields (strip (a ++ String COMMA b))) = Some (strip a, (strip b, [])).
Proof.
  intros Ha Hb. rewrite strip_comma. unfold fields.
  rewrite split_on_app by now apply nochar_lstrip.
  rewrite split_on_nochar by now apply nochar_rstrip.
  cbn. now rewrite strip_lstrip, strip_rstrip.
Qed.

Lemma fields_three a b c : nocomma a = true -> nocomma b = true ->
  name_val (fields (strip (a ++ String COMMA (b ++ String COMMA c)))) = Some (strip a, strip b).
Proof.
  intros Ha Hb. rewrite strip_comma. unfold fields.
  rewrite split_on_app by now apply nochar_lstrip.
  rewrite rstrip_app_nonws by apply is_ws_comma.
  rewrite split_on_app by assumption.
  destruct (split_on COMMA (rstrip c)); cbn; now rewrite strip_lstrip.
Qed.

Lemma allws_nocomma x : allws x = true -> nocomma x = true.
Proof. unfold nocomma. induction x as [|a x IH]; cbn [allws nochar]; [reflexivity|]. intros H. apply andb_prop in H as [Hc Hx].
  rewrite (IH Hx), andb_true_r. destruct (UA.eqb_spec a COMMA) as [->|]; [discriminate Hc | reflexivity]. Qed.

Lemma nocomma_pad p s q : allws p = true -> allws q = true -> nocomma s = true -> nocomma (p ++ s ++ q) = true.
Proof. intros Hp Hq Hs. apply allws_nocomma in Hp, Hq. unfold nocomma in *. now rewrite !nochar_app, Hp, Hs, Hq. Qed.

Lemma parse_line_unfold raw : parse_line raw = if is_comment (strip raw) then None else fields (strip raw).
Proof. reflexivity. Qed.

(* a line  d , v  or  d , v , c  reads as (strip d, strip v), unless the name starts a comment *)
Lemma parse_line_two_core d v : nocomma d = true -> nocomma v = true ->
  core (parse_line (d ++ String COMMA v))
  = if is_comment (lstrip d ++ [COMMA]) then None else Some (strip d, (strip v, [])).
Proof.
  intros Hd Hv. rewrite parse_line_unfold, strip_comma, is_comment_comma, <- strip_comma.
  destruct (is_comment _); [reflexivity | now apply fields_two].
Qed.

Lemma parse_line_three d v c : nocomma d = true -> nocomma v = true ->
  name_val (parse_line (d ++ String COMMA (v ++ String COMMA c)))
  = if is_comment (lstrip d ++ [COMMA]) then None else Some (strip d, strip v).
Proof.
  intros Hd Hv. rewrite parse_line_unfold, strip_comma, is_comment_comma, <- strip_comma.
  destruct (is_comment _); [reflexivity | now apply fields_three].
Qed.

Lemma parse_line_two d v : nocomma d = true -> nocomma v = true ->
  name_val (parse_line (d ++ String COMMA v))
  = if is_comment (lstrip d ++ [COMMA]) then None else Some (strip d, strip v).
Proof.
  intros Hd Hv. pose proof (parse_line_two_core d v Hd Hv) as C.
  destruct (parse_line (d ++ String COMMA v)), (is_comment _); try discriminate C; [|reflexivity].
  injection C as <- <- _. reflexivity.
Qed.

Lemma decorated_line p1 p2 p3 p4 d v c :
  allws p1 = true -> allws p2 = true -> allws p3 = true -> allws p4 = true ->
  nocomma d = true -> nocomma v = true ->
  name_val (parse_line (p1 ++ d ++ p2 ++ String COMMA (p3 ++ v ++ p4 ++ String COMMA c)))
  = name_val (parse_line (d ++ String COMMA v)).
Proof.
  intros H1 H2 H3 H4 Hd Hv. rewrite (app_assoc d), (app_assoc p1), (app_assoc v), (app_assoc p3).
  rewrite parse_line_three, parse_line_two by (assumption || now apply nocomma_pad).
  rewrite is_comment_pad, !strip_pad by assumption. now destruct (is_comment _).
Qed.

Lemma clean_line d v : nocomma d = true -> nocomma v = true -> is_comment (lstrip d) = false ->
  name_val (parse_line (d ++ String COMMA v)) = Some (strip d, strip v).
Proof.
  intros Hd Hv Hc. rewrite parse_line_two by assumption.
  assert (is_comment (lstrip d ++ [COMMA]) = false) as ->; [|reflexivity].
  destruct (lstrip d) as [|a [|b r]]; [reflexivity | | exact Hc]. cbn in *. now rewrite andb_false_r in *.
Qed.

Lemma comment_line p m x : allws p = true -> m = [HASH] \/ m = [DASH; DASH] \/ m = [STAR] ->
  parse_line (p ++ m ++ x) = None.
Proof.
  intros Hp Hm. rewrite parse_line_unfold. unfold strip. rewrite lstrip_app_ws by assumption.
  destruct Hm as [-> | [-> | ->]]; cbn [app]; rewrite lstrip_nonws by reflexivity;
    repeat rewrite rstrip_nonws by reflexivity; reflexivity.
Qed.

Lemma blank_line p : allws p = true -> parse_line p = None.
Proof. intros H. rewrite parse_line_unfold, strip_allws by assumption. reflexivity. Qed.

Lemma commaless_line s : nocomma s = true -> parse_line s = None.
Proof.
  intros H. rewrite parse_line_unfold. destruct (is_comment (strip s)); [reflexivity|].
  unfold fields. rewrite split_on_nochar; [reflexivity|]. unfold strip. now apply nochar_rstrip, nochar_lstrip.
Qed.

Lemma parse_lines_app a b : parse_lines (a ++ b)%list = (parse_lines a ++ parse_lines b)%list.
Proof. unfold parse_lines. apply flat_map_app. Qed.

Lemma ignored_line l1 l2 c : parse_line c = None -> read_lines (l1 ++ c :: l2)%list = read_lines (l1 ++ l2)%list.
Proof. intros H. unfold read_lines. rewrite !parse_lines_app. cbn. rewrite H. reflexivity. Qed.

Lemma dict_get_set_same k e d : dict_get k (dict_set k e d) = Some e.
Proof. induction d as [|[k' e'] r IH]; cbn; [now rewrite US.eqb_refl|].
  destruct (US.eqb k k') eqn:E; cbn; rewrite E; [reflexivity | exact IH]. Qed.

Lemma dict_get_set_other k k' e d : US.eqb k k' = false -> dict_get k (dict_set k' e d) = dict_get k d.
Proof. intros N. induction d as [|[k2 e2] r IH]; cbn; [now rewrite N|].
  destruct (US.eqb k' k2) eqn:E; cbn.
  - apply US.eqb_eq in E. subst. now rewrite N.
  - destruct (US.eqb k k2); [reflexivity | exact IH]. Qed.

Lemma build_from_get k es : forall d,
  dict_get k (build_from d es) = match find_last k es with Some x => Some x | None => dict_get k d end.
Proof.
  induction es as [|e r IH]; intros d; [reflexivity|]. unfold build_from in *. cbn [fold_left find_last]. rewrite IH.
  destruct (find_last k r); [reflexivity|]. destruct (US.eqb k (e_name e)) eqn:E.
  - apply US.eqb_eq in E. subst. apply dict_get_set_same.
  - now apply dict_get_set_other.
Qed.

Lemma find_last_app k a b : find_last k (a ++ b)%list = match find_last k b with Some x => Some x | None => find_last k a end.
Proof. induction a as [|e r IH]; cbn; [now destruct (find_last k b)|]. rewrite IH. now destruct (find_last k b). Qed.

Lemma find_last_notin k es : ~ In k (map e_name es) -> find_last k es = None.
Proof. induction es as [|e r IH]; cbn; [reflexivity|]. intros H. rewrite IH by tauto.
  destruct (US.eqb_spec k (e_name e)); [subst; tauto | reflexivity]. Qed.

Lemma find_last_perm k es es' : NoDup (map e_name es) -> Permutation es es' -> find_last k es = find_last k es'.
Proof.
  intros ND P. induction P as [| e l l' P IH | e1 e2 l | l l' l'' P1 IH1 P2 IH2].
  - reflexivity.
  - cbn. inversion ND; subst. now rewrite IH.
  - cbn. cbn in ND. inversion ND as [|? ? N1 ND1]; subst. inversion ND1; subst.
    destruct (find_last k l); [reflexivity|].
    destruct (US.eqb_spec k (e_name e1)), (US.eqb_spec k (e_name e2)); subst; try reflexivity.
    exfalso. apply N1. left. congruence.
  - rewrite IH1 by assumption. apply IH2. eapply Permutation_NoDup; [apply Permutation_map; eassumption | assumption].
Qed.

Lemma find_last_filter k es : find_last k es = find_last k (filter (fun e => US.eqb k (e_name e)) es).
Proof. induction es as [|e r IH]; cbn; [reflexivity|]. destruct (US.eqb k (e_name e)) eqn:E; cbn; rewrite <- IH, ?E; [reflexivity|]. now destruct (find_last k r). Qed.

Lemma parse_lines_perm ls ls' : Permutation ls ls' -> Permutation (parse_lines ls) (parse_lines ls').
Proof. intros P. unfold parse_lines. induction P; cbn.
  - constructor.
  - now apply Permutation_app_head.
  - rewrite !app_assoc. apply Permutation_app_tail, Permutation_app_comm.
  - etransitivity; eassumption.
Qed.

Lemma read_lines_get k ls : dict_get k (read_lines ls) = find_last k (parse_lines ls).
Proof. unfold read_lines. rewrite build_from_get. now destruct (find_last k (parse_lines ls)). Qed.

Lemma permutation_invariance ls ls' : Permutation ls ls' -> NoDup (map e_name (parse_lines ls)) ->
  forall k, dict_get k (read_lines ls) = dict_get k (read_lines ls').
Proof. intros P ND k. rewrite !read_lines_get. apply find_last_perm; [assumption | now apply parse_lines_perm]. Qed.

Lemma reorder_with_duplicates ls ls' k :
  filter (fun e => US.eqb k (e_name e)) (parse_lines ls) = filter (fun e => US.eqb k (e_name e)) (parse_lines ls') ->
  dict_get k (read_lines ls) = dict_get k (read_lines ls').
Proof. intros H. rewrite !read_lines_get, (find_last_filter k (parse_lines ls)), (find_last_filter k (parse_lines ls')). now rewrite H. Qed.

Lemma last_wins ls1 ls2 k :
  dict_get k (read_lines (ls1 ++ ls2)%list) =
  match dict_get k (read_lines ls2) with Some e => Some e | None => dict_get k (read_lines ls1) end.
Proof. rewrite !read_lines_get, parse_lines_app. apply find_last_app. Qed.

(* iteration order of the keys = order of first occurrence *)
Definition mem (k : string) (l : list string) : bool := existsb (US.eqb k) l.
Definition add_keys (acc l : list string) : list string :=
  fold_left (fun acc k => if mem k acc then acc else (acc ++ [k])%list) l acc.

Lemma keys_dict_set k e d : keys (dict_set k e d) = if mem k (keys d) then keys d else (keys d ++ [k])%list.
Proof. unfold keys, mem. induction d as [|[k' e'] r IH]; cbn [dict_set map fst existsb app]; [reflexivity|].
  destruct (US.eqb k k') eqn:E; cbn [map fst orb]; [reflexivity|]. rewrite IH.
  now destruct (existsb (US.eqb k) (map fst r)). Qed.

Lemma keys_build_from es : forall d, keys (build_from d es) = add_keys (keys d) (map e_name es).
Proof. induction es as [|e r IH]; intros d; [reflexivity|]. unfold build_from, add_keys in *. cbn [fold_left map].
  rewrite IH, keys_dict_set. reflexivity. Qed.

Lemma mem_filter p k acc : p k = true -> mem k (filter p acc) = mem k acc.
Proof. intros H. unfold mem. induction acc as [|a r IH]; cbn [filter existsb]; [reflexivity|]. destruct (p a) eqn:E; cbn [existsb].
  - now rewrite IH.
  - rewrite IH. destruct (US.eqb_spec k a); [subst; congruence | reflexivity]. Qed.

Lemma filter_add_keys p l : forall acc, filter p (add_keys acc l) = add_keys (filter p acc) (filter p l).
Proof.
  induction l as [|k r IH]; intros acc; [reflexivity|]. unfold add_keys in *. cbn [fold_left filter].
  rewrite IH. destruct (p k) eqn:E; cbn [fold_left].
  - rewrite (mem_filter p k acc E). destruct (mem k acc); [reflexivity|]. rewrite filter_app. cbn. now rewrite E.
  - destruct (mem k acc); [reflexivity|]. rewrite filter_app. cbn. rewrite E, app_nil_r. reflexivity.
Qed.

Lemma block_order_preserved p es es' :
  filter p (map e_name es) = filter p (map e_name es') ->
  filter p (keys (build_from [] es)) = filter p (keys (build_from [] es')).
Proof. intros H. rewrite !keys_build_from, !filter_add_keys. now rewrite H. Qed.

Lemma univ_nocr s : forall f, nochar CR (univ f s) = true.
Proof. induction s as [|c r IH]; intros f; cbn; [reflexivity|].
  destruct (UA.eqb c LF) eqn:E1; [destruct f; cbn; auto|].
  destruct (UA.eqb c CR) eqn:E2; cbn; [auto|]. now rewrite E2, IH. Qed.

Lemma univ_nocr_app u x : nochar CR u = true -> univ false (u ++ x) = u ++ univ false x.
Proof.
  induction u as [|c r IH]; intros H; [reflexivity|]. cbn in H. apply andb_prop in H as [H1 H2]. apply negb_true_iff in H1.
  cbn [app univ]. rewrite H1. destruct (UA.eqb_spec c LF) as [->|N]; cbn [app]; now rewrite (IH H2).
Qed.

Lemma univ_noeol l rest : noeol l = true -> univ false (l ++ rest) = l ++ univ false rest.
Proof. intros H. apply univ_nocr_app. unfold noeol in H. now apply andb_prop in H. Qed.

Definition starts_lf (s : string) : bool := match s with String c _ => UA.eqb c LF | EmptyString => false end.

Lemma univ_eol (e : eol) rest : (e = EolCR -> starts_lf rest = false) ->
  univ false (eol_str e ++ rest) = String LF (univ false rest).
Proof.
  destruct e; intros H; cbn; [reflexivity | reflexivity |].
  f_equal. specialize (H eq_refl). destruct rest as [|c r]; [reflexivity|]. cbn in *. now rewrite H.
Qed.

Lemma starts_lf_noeol l rest : noeol l = true -> starts_lf rest = false -> starts_lf (l ++ rest) = false.
Proof. destruct l as [|c r]; [now intros|]. unfold noeol. cbn. intros H _.
  apply andb_prop in H as [H _]. apply andb_prop in H as [H _]. now apply negb_true_iff in H. Qed.

Lemma universal_join e ls last : Forall (fun l => noeol l = true) ls -> noeol last = true ->
  universal (join_lines e ls ++ last) = join_lines EolLF ls ++ last.
Proof.
  intros F Hl. unfold universal. induction F as [|l ls H F IH].
  - cbn. rewrite <- (app_nil_r last) at 1. rewrite univ_noeol by assumption. cbn. now rewrite app_nil_r.
  - unfold join_lines in *. cbn [map cat].
    rewrite <- !app_assoc, univ_noeol by assumption. f_equal.
    rewrite univ_eol; [cbn; f_equal; exact IH|].
    (* after a lone CR comes the next line, its CR, or the last line: never a line feed *)
    intros ->. destruct F as [|l2 ls2 H2 _]; cbn [map cat app].
    + rewrite <- (app_nil_r last). now apply starts_lf_noeol.
    + rewrite <- !app_assoc. now apply starts_lf_noeol.
Qed.

Lemma readlines_line l rest : nochar LF l = true ->
  readlines (l ++ String LF rest) = (l ++ [LF]) :: readlines rest.
Proof. induction l as [|c r IH]; cbn [app]; intros H.
  - cbn. reflexivity.
  - cbn in H. apply andb_prop in H as [H1 H2]. apply negb_true_iff in H1. cbn [readlines]. rewrite H1, (IH H2). reflexivity. Qed.

Lemma readlines_last l : nochar LF l = true -> readlines l = if is_empty l then [] else [l].
Proof. induction l as [|c r IH]; [reflexivity|]. cbn. intros H. apply andb_prop in H as [H1 H2]. apply negb_true_iff in H1.
  rewrite H1, (IH H2). now destruct r. Qed.

Lemma readlines_join ls last : Forall (fun l => noeol l = true) ls -> noeol last = true ->
  readlines (join_lines EolLF ls ++ last) = (map (fun l => (l ++ [LF])) ls ++ (if is_empty last then [] else [last]))%list.
Proof.
  intros F Hl.
  induction F as [|l ls H F IH]; unfold join_lines in *.
  - cbn. apply readlines_last. unfold noeol in Hl. now apply andb_prop in Hl as [Hl _].
  - cbn [map cat]. rewrite <- !app_assoc. cbn [eol_str app]. rewrite readlines_line.
    + cbn [app]. f_equal. exact IH.
    + unfold noeol in H. now apply andb_prop in H as [H _].
Qed.

Lemma parse_line_eol l : parse_line (l ++ [LF]) = parse_line l.
Proof. rewrite !parse_line_unfold, strip_app_ws by reflexivity. reflexivity. Qed.

Lemma parse_lines_map_eol ls : parse_lines (map (fun l => l ++ [LF]) ls) = parse_lines ls.
Proof. unfold parse_lines. induction ls as [|l r IH]; cbn; [reflexivity|]. now rewrite parse_line_eol, IH. Qed.

Lemma line_endings_irrelevant e ls last : Forall (fun l => noeol l = true) ls -> noeol last = true ->
  read_text (join_lines e ls ++ last) = read_lines (ls ++ [last])%list.
Proof.
  intros F Hl. unfold read_text. rewrite universal_join, readlines_join by assumption.
  unfold read_lines. rewrite !parse_lines_app, parse_lines_map_eol. f_equal. f_equal.
  destruct last; cbn; [|reflexivity]. reflexivity.
Qed.

Lemma univ_app_lf b x : forall f, univ f (b ++ String LF x) = univ f (b ++ [LF]) ++ univ false x.
Proof.
  induction b as [|c r IH]; intros f; cbn [app univ].
  - rewrite UA.eqb_refl. destruct f; reflexivity.
  - destruct (UA.eqb c LF); [destruct f; [apply IH | cbn; f_equal; apply IH]|].
    destruct (UA.eqb c CR); cbn; f_equal; apply IH.
Qed.

Lemma readlines_app u v : complete u = true -> readlines (u ++ v) = (readlines u ++ readlines v)%list.
Proof.
  induction u as [|c r IH]; [reflexivity|]. cbn [complete app readlines]. intros H.
  destruct r as [|c2 r2].
  - cbn in H. rewrite H. reflexivity.
  - cbn [is_empty] in H. rewrite (IH H). destruct (UA.eqb c LF); [reflexivity|].
    cbn [app readlines]. destruct (UA.eqb c2 LF); [reflexivity|].
    (* the lines of c2 :: r2 are not empty, so c goes to the head of the same first line on both sides *)
    destruct (readlines r2); reflexivity.
Qed.

Lemma univ_false_nonempty s : s <> [] -> univ false s <> [].
Proof. destruct s as [|a s]; [congruence|]. intros _. cbn. destruct (UA.eqb a LF); [discriminate|].
  destruct (UA.eqb a CR); discriminate. Qed.

Lemma complete_cons c v : complete v = true -> v <> [] -> complete (String c v) = true.
Proof. intros H N. cbn. destruct v; [congruence | exact H]. Qed.

Lemma complete_univ_lf b : forall f, complete (univ f (b ++ [LF])) = true.
Proof.
  induction b as [|c r IH]; intros f; cbn [app univ].
  - rewrite UA.eqb_refl. destruct f; reflexivity.
  - (* the translated rest is complete; one more character in front keeps it so unless the rest is empty and the
       character is not a line feed *)
    assert (Front : forall a g, a = LF \/ univ g (r ++ [LF]) <> [] -> complete (a :: univ g (r ++ [LF])) = true).
    { intros a g [-> | N]; [|apply complete_cons; [apply IH | exact N]]. specialize (IH g). now destruct (univ g (r ++ [LF])). }
    destruct (UA.eqb c LF); [destruct f; [apply IH|] | destruct (UA.eqb c CR)]; apply Front; auto.
    right. apply univ_false_nonempty. now destruct r.
Qed.

Lemma read_text_append b x k :
  dict_get k (read_text (b ++ String LF x)) =
  match dict_get k (read_text x) with Some e => Some e | None => dict_get k (read_text (b ++ [LF])) end.
Proof.
  unfold read_text, universal. rewrite univ_app_lf, readlines_app by apply complete_univ_lf. apply last_wins.
Qed.

Lemma client_override_pinned_partial base params k : terminated base = true ->
  dict_get k (read_text (client_text_pinned base params)) =
  match dict_get k (read_text (cat (map param_line params))) with
  | Some e => Some e
  | None => dict_get k (read_text base)
  end.
Proof.
  intros T. unfold client_text_pinned, read_text, universal at 1. rewrite univ_nocr_app by apply univ_nocr.
  rewrite readlines_app by exact T. apply last_wins.
Qed.

Definition body (p : string * string) : string := fst p ++ [COMMA; SPACE] ++ snd p.

Lemma clean_param_inv p : clean_param p = true ->
  noeol (fst p) = true /\ noeol (snd p) = true /\ nocomma (fst p) = true /\ nocomma (snd p) = true
  /\ strip (fst p) = fst p /\ is_comment (lstrip (fst p)) = false.
Proof.
  unfold clean_param. intros H.
  apply andb_prop in H as [H _]. apply andb_prop in H as [H H6]. apply andb_prop in H as [H H5].
  apply andb_prop in H as [H H4]. apply andb_prop in H as [H H3]. apply andb_prop in H as [H1 H2].
  apply US.eqb_eq in H5. apply negb_true_iff in H6. repeat split; assumption.
Qed.

Lemma clean_param_parse p : clean_param p = true ->
  exists e, parse_line (body p) = Some e /\ e_name e = fst p /\ e_sval e = strip (snd p).
Proof.
  intros H. destruct (clean_param_inv p H) as (_ & _ & H3 & H4 & H5 & H6).
  (* [body p] is  fst p , " " ++ snd p ; the space is stripped again *)
  assert (C : name_val (parse_line (body p)) = Some (strip (fst p), strip (snd p)))
    by now apply (clean_line (fst p) (SPACE :: snd p)).
  destruct (parse_line (body p)) as [e|]; [|discriminate]. injection C as Hn Hs. exists e. now rewrite Hn, Hs, H5.
Qed.

Lemma clean_params_names ps : Forall (fun p => clean_param p = true) ps ->
  map e_name (parse_lines (map body ps)) = map fst ps.
Proof.
  induction 1 as [|p r H F IH]; [reflexivity|]. unfold parse_lines in *. cbn [map flat_map].
  destruct (clean_param_parse p H) as (e & -> & N & _). cbn. now rewrite IH, N.
Qed.

Lemma clean_params_find ps k v : Forall (fun p => clean_param p = true) ps -> NoDup (map fst ps) -> In (k, v) ps ->
  option_map e_sval (find_last k (parse_lines (map body ps))) = Some (strip v).
Proof.
  induction 1 as [|p r H F IH]; intros ND I; [destruct I|]. cbn in ND. inversion ND as [|? ? NI ND']; subst.
  unfold parse_lines in *. cbn [map flat_map]. destruct (clean_param_parse p H) as (e & -> & N & S).
  cbn [app find_last]. destruct I as [-> | I].
  - cbn in *. rewrite find_last_notin.
    + rewrite N, US.eqb_refl. cbn. now rewrite S.
    + fold (parse_lines (map body r)). now rewrite clean_params_names.
  - specialize (IH ND' I). destruct (find_last k (flat_map _ (map body r))); [exact IH | discriminate IH].
Qed.

Lemma cat_param_lines ps : cat (map param_line ps) = join_lines EolLF (map body ps) ++ [].
Proof. rewrite app_nil_r. unfold join_lines. induction ps as [|p r IH]; [reflexivity|]. cbn [map cat]. rewrite <- IH.
  unfold param_line, body. cbn [eol_str]. now rewrite <- !app_assoc. Qed.

Lemma clean_params_noeol ps : Forall (fun p => clean_param p = true) ps -> Forall (fun l => noeol l = true) (map body ps).
Proof.
  induction 1 as [|p r H F IH]; constructor; [|exact IH]. destruct (clean_param_inv p H) as (H1 & H2 & _).
  unfold body, noeol in *. rewrite !nochar_app.
  apply andb_prop in H1 as [A1 A2]. apply andb_prop in H2 as [B1 B2]. now rewrite A1, A2, B1, B2.
Qed.

Lemma client_param_value params k v :
  Forall (fun p => clean_param p = true) params -> NoDup (map fst params) -> In (k, v) params ->
  option_map e_sval (dict_get k (read_text (cat (map param_line params)))) = Some (strip v).
Proof.
  intros F ND I. rewrite cat_param_lines, line_endings_irrelevant by (try apply clean_params_noeol; auto).
  rewrite read_lines_get, parse_lines_app. cbn [parse_lines flat_map]. rewrite (blank_line [] eq_refl), app_nil_r.
  now apply clean_params_find.
Qed.

(* the client's append after fix e85b257: an unterminated base file gets its line feed first *)
Lemma split_complete u : exists v w, u = v ++ w /\ complete v = true /\ nochar LF w = true.
Proof.
  induction u as [|c r (v & w & E & Cv & Nw)]; [exists [], []; repeat split|]. subst r.
  destruct (UA.eqb c LF) eqn:Ec.
  - exists (String c v), w. repeat split; [|exact Nw]. destruct v; [cbn; exact Ec | now apply complete_cons].
  - destruct v as [|a v'].
    + exists [], (String c w). repeat split. cbn. now rewrite Ec, Nw.
    + exists (String c (String a v')), w. repeat split; [|exact Nw]. now apply complete_cons.
Qed.

Lemma complete_app v w : complete v = true -> complete w = true -> complete (v ++ w) = true.
Proof. induction v as [|c r IH]; [now intros|]. intros Hv Hw. cbn [app]. destruct r as [|a r'].
  - cbn in *. destruct w; [cbn; exact Hv | exact Hw].
  - cbn [complete is_empty] in Hv. apply complete_cons; [now apply IH | discriminate]. Qed.

Lemma complete_line w : complete (w ++ [LF]) = true.
Proof. induction w as [|c r IH]; [reflexivity|]. cbn [app]. apply complete_cons; [exact IH | destruct r; discriminate]. Qed.

Lemma parse_lines_snoc_lf u : parse_lines (readlines (u ++ [LF])) = parse_lines (readlines u).
Proof.
  destruct (split_complete u) as (v & w & -> & Cv & Nw). rewrite <- app_assoc, (readlines_app v (w ++ [LF]) Cv), (readlines_app v w Cv).
  rewrite !parse_lines_app. f_equal. rewrite (readlines_line w [] Nw), (readlines_last w Nw). cbn [readlines].
  destruct w as [|c w'].
  - change ([] ++ [LF]) with ([LF]). unfold parse_lines. cbn [flat_map is_empty].
    now rewrite (blank_line ([LF]) eq_refl).
  - unfold parse_lines. cbn [flat_map is_empty]. now rewrite (parse_line_eol (String c w')).
Qed.

Lemma client_override base params k :
  dict_get k (read_text (client_text base params)) =
  match dict_get k (read_text (cat (map param_line params))) with
  | Some e => Some e
  | None => dict_get k (read_text base)
  end.
Proof.
  unfold client_text. destruct (complete (universal base)) eqn:T.
  - exact (client_override_pinned_partial base params k T).
  - unfold read_text, universal at 1.
    assert (NC : nochar CR (universal base ++ [LF]) = true) by (rewrite nochar_app; unfold universal; now rewrite univ_nocr).
    rewrite univ_nocr_app by exact NC.
    rewrite readlines_app by apply complete_line.
    rewrite last_wins. unfold read_lines, universal. now rewrite parse_lines_snoc_lf.
Qed.

(* a "-" ending u would pair with the first "-" of the comment and cut one character early *)
Lemma before_dd_cut u c : before_dd u = u -> last u SPACE <> DASH -> before_dd (u ++ DASH :: DASH :: c) = u.
Proof.
  induction u as [|c0 r IH]; intros H L; [reflexivity|]. destruct r as [|c1 r'].
  - cbn in L. cbn. destruct (UA.eqb_spec c0 DASH) as [->|N]; [congruence|]. reflexivity.
  - cbn [app before_dd] in *. destruct (UA.eqb c0 DASH && UA.eqb c1 DASH); [discriminate H|].
    f_equal. apply IH; [now inversion H | exact L].
Qed.

Lemma last_ws_not_dash a p : allws p = true -> last (a ++ COMMA :: p) SPACE <> DASH.
Proof.
  intros W. assert (G : forall q d, allws q = true -> d <> DASH -> last (d :: q) SPACE <> DASH).
  { induction q as [|w q IHq]; intros d Wq Nd; [exact Nd|]. cbn in Wq. apply andb_prop in Wq as [Ww Wq].
    change (last (d :: w :: q) SPACE) with (last (w :: q) SPACE). apply IHq; [exact Wq|]. intros ->. vm_compute in Ww. discriminate. }
  induction a as [|c r IH]; [apply G; [exact W | discriminate]|].
  cbn [app]. destruct (r ++ COMMA :: p) eqn:E; [destruct r; discriminate E|]. exact IH.
Qed.

Lemma list_trailing_comment a p c : before_dd (a ++ COMMA :: p) = a ++ COMMA :: p -> allws p = true ->
  list_fields (a ++ COMMA :: p ++ DASH :: DASH :: c) = list_fields a.
Proof.
  intros H W. unfold list_fields.
  replace (a ++ COMMA :: p ++ DASH :: DASH :: c) with ((a ++ COMMA :: p) ++ DASH :: DASH :: c) by now rewrite <- app_assoc.
  rewrite before_dd_cut by (assumption || now apply last_ws_not_dash).
  assert (Ha : before_dd a = a).
  { clear -H. revert H. induction a as [|c0 r IH]; intros H; [reflexivity|]. destruct r as [|c1 r'].
    - reflexivity.
    - cbn [app before_dd] in *. destruct (UA.eqb c0 DASH && UA.eqb c1 DASH); [discriminate H|]. f_equal. apply IH. now inversion H. }
  rewrite Ha, split_on_app_gen, (split_on_nochar COMMA p) by now apply allws_nocomma.
  destruct (split_on COMMA a) as [|h t] eqn:E; [now apply split_on_nonempty in E|].
  cbn [app tl]. rewrite map_app, filter_app. cbn [map filter]. rewrite (strip_allws p W). cbn. now rewrite app_nil_r.
Qed.

Section CacheFacts.
  Variables Req Key Res : Type.
  Variable key : Req -> Key.
  Variable keq : Key -> Key -> bool.
  Variable run : Req -> Res.
  Hypothesis sound : forall a b, keq (key a) (key b) = true -> run a = run b.

  Definition cache_ok (c : list (Key * Res)) : Prop :=
    Forall (fun kx => exists r0, key r0 = fst kx /\ run r0 = snd kx) c.

  Lemma cache_lookup_ok c r x : cache_ok c -> cache_lookup Key Res keq (key r) c = Some x -> x = run r.
  Proof.
    induction c as [|[k y] t IH]; cbn; intros OK H; [discriminate|]. inversion OK as [|kx t' Hx OKt]; subst. destruct Hx as (r0 & K & R).
    cbn in K, R. destruct (keq (key r) k) eqn:E.
    - inversion H; subst. symmetry. now apply sound.
    - now apply IH.
  Qed.

  Lemma serve_transparent rs : forall c, cache_ok c -> serve Req Key Res key keq run c rs = map run rs.
  Proof.
    induction rs as [|r t IH]; intros c OK; [reflexivity|]. cbn [serve map].
    destruct (cache_lookup Key Res keq (key r) c) as [x|] eqn:E.
    - rewrite (cache_lookup_ok c r x OK E). f_equal. now apply IH.
    - f_equal. apply IH. constructor; [now exists r | exact OK].
  Qed.
End CacheFacts.
