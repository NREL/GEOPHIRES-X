(* Proofs/UnitAlgProofs.v - the algebra of affine unit conversions (Model/UnitAlg.v): [to_base u] is a bijection with
   inverse [from_base u] when the factor is not 0, [convert u v] is the composite; everything else follows from that. *)
From Coq Require Import QArith List ZArith Bool String Lia Lqa Field.
From Verif Require Import Base.Flat Model.UnitAlg.
Import ListNotations.
Open Scope Q_scope.

Global Instance to_base_wd u : Proper (Qeq ==> Qeq) (to_base u).
Proof. intros x y E. unfold to_base. rewrite E. reflexivity. Qed.

Global Instance from_base_wd u : Proper (Qeq ==> Qeq) (from_base u).
Proof. intros x y E. unfold from_base. rewrite E. reflexivity. Qed.

Global Instance convert_wd u v : Proper (Qeq ==> Qeq) (convert u v).
Proof. intros x y E. unfold convert. rewrite E. reflexivity. Qed.

Lemma to_from_base u b : ~ pu_fac u == 0 -> to_base u (from_base u b) == b.
Proof. intros H. unfold to_base, from_base. field. exact H. Qed.

Lemma from_to_base u x : ~ pu_fac u == 0 -> from_base u (to_base u x) == x.
Proof. intros H. unfold to_base, from_base. field. exact H. Qed.

Lemma convert_denote u v x : ~ pu_fac v == 0 -> to_base v (convert u v x) == to_base u x.
Proof. apply to_from_base. Qed.

Lemma convert_id u x : ~ pu_fac u == 0 -> convert u u x == x.
Proof. apply from_to_base. Qed.

Lemma convert_compose u v w x : ~ pu_fac v == 0 -> convert v w (convert u v x) == convert u w x.
Proof. intros Hv. unfold convert at 1 3. rewrite convert_denote by exact Hv. reflexivity. Qed.

Lemma convert_roundtrip u v x :
  ~ pu_fac u == 0 -> ~ pu_fac v == 0 -> convert v u (convert u v x) == x.
Proof. intros Hu Hv. rewrite convert_compose by exact Hv. apply convert_id. exact Hu. Qed.

Lemma convert_injective u v x y :
  ~ pu_fac u == 0 -> ~ pu_fac v == 0 -> convert u v x == convert u v y -> x == y.
Proof.
  intros Hu Hv E. rewrite <- (convert_roundtrip u v x Hu Hv), E. apply convert_roundtrip; assumption.
Qed.

(* units without offset: one multiplicative factor, "the exact conversion factor" *)
Lemma convert_linear u v x : pu_off u == 0 -> pu_off v == 0 -> convert u v x == x * conv_factor u v.
Proof. intros Ou Ov. unfold convert, to_base, from_base, conv_factor, Qdiv. rewrite Ou, Ov. ring. Qed.

(* [v] is [u] stretched by k: one unit of v is k units of u (kilometer / meter with k = 1000) *)
Lemma to_base_scaled u v k x y :
  pu_fac v == k * pu_fac u -> pu_off v == pu_off u -> y == x * k -> to_base u y == to_base v x.
Proof. intros F O ->. unfold to_base. rewrite F, O. ring. Qed.

Lemma convert_scaled u v k x :
  pu_fac v == k * pu_fac u -> pu_off v == pu_off u -> ~ k == 0 -> ~ pu_fac u == 0 -> convert u v (x * k) == x.
Proof.
  intros F O Hk Hu. unfold convert. rewrite (to_base_scaled u v k x (x * k) F O (Qeq_refl _)). apply from_to_base.
  rewrite F. intros Z. apply Qmult_integral in Z. tauto.
Qed.

(* two spellings of one unit are interchangeable *)
Lemma pu_same_spec u v :
  pu_same u v = true -> pu_dim u = pu_dim v /\ pu_fac u == pu_fac v /\ pu_off u == pu_off v.
Proof.
  unfold pu_same. intros H. apply andb_prop in H. destruct H as [H O]. apply andb_prop in H. destruct H as [D F].
  split; [apply Nat.eqb_eq; exact D|]. split; apply Qeq_bool_eq; assumption.
Qed.

Lemma pu_same_refl u : pu_same u u = true.
Proof. unfold pu_same. rewrite Nat.eqb_refl, !Qeq_bool_refl. reflexivity. Qed.

Lemma to_base_same u v x : pu_same u v = true -> to_base u x == to_base v x.
Proof. intros S. destruct (pu_same_spec u v S) as (_ & F & O). unfold to_base. rewrite F, O. reflexivity. Qed.

Lemma from_base_same u v b : pu_same u v = true -> from_base u b == from_base v b.
Proof. intros S. destruct (pu_same_spec u v S) as (_ & F & O). unfold from_base. rewrite F, O. reflexivity. Qed.

Lemma convert_same_target u v v' x : pu_same v v' = true -> convert u v x == convert u v' x.
Proof. apply from_base_same. Qed.

Lemma convert_same_source u u' v x : pu_same u u' = true -> convert u v x == convert u' v x.
Proof. intros S. unfold convert. rewrite (to_base_same u u' x S). reflexivity. Qed.

Lemma same_dim_sym u v : same_dim u v = same_dim v u.
Proof. apply Nat.eqb_sym. Qed.

Lemma same_dim_of_same u v w : pu_same u v = true -> same_dim u w = same_dim v w.
Proof. intros S. unfold same_dim. rewrite (proj1 (pu_same_spec u v S)). reflexivity. Qed.

Lemma fac_nonzero_same u v : pu_same u v = true -> ~ pu_fac u == 0 -> ~ pu_fac v == 0.
Proof. intros S. destruct (pu_same_spec u v S) as (_ & F & _). rewrite F. tauto. Qed.
