(* Proofs/UnitCatalogueProofs.v - facts about the REGENERATED catalogue (Gen/UnitCatalogue.v): re-proved on every run *)
From Coq Require Import QArith List ZArith Bool String Ascii Lia Lqa.
From Verif Require Import Base.Flat Model.UnitAlg Proofs.UnitAlgProofs Model.UnitReader Proofs.UnitReaderProofs Gen.UnitCatalogue Gen.UnitReference.
Import ListNotations.
Open Scope string_scope.
Open Scope Q_scope.

Lemma gen_pint_wf : wf_pint gen_pint = true.
Proof. vm_compute. reflexivity. Qed.

(* the live registry gives one meaning per long unit name, and no unit has factor 0 *)
Lemma gen_tables_wf : table_wf gen_tables.
Proof. apply wf_pint_sound. exact gen_pint_wf. Qed.

Lemma gen_tables_nonzero : forall s p, t_parse gen_tables s = Some p -> ~ pu_fac p == 0.
Proof. intros s p H. eapply wf_pint_nonzero; [exact gen_pint_wf|exact H]. Qed.

(* position of the first parameter row with a given name (used by the non-vacuity examples) *)
Fixpoint param_index (name : string) (l : list (string * bool * bool * string * string * uref)) : nat :=
  match l with
  | [] => O
  | (n, _, _, _, _, _) :: r => if String.eqb n name then O else S (param_index name r)
  end.

(* the live registry gives every unit of the frozen independent reference its documented meaning (to 1e-9):
   a unit redefined in GEOPHIRES3_newunits.txt (MMBTU, cents, KUSD ...) or in pint breaks this proof *)
Lemma gen_reference_forallb : forallb (ref_entry_ok (1 # 1000000000) gen_tables) ref_units = true.
Proof. vm_compute. reflexivity. Qed.
