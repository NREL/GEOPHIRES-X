(* Proofs/UnitReaderProofs.v - lemmas about Model/UnitReader.v (C06): the vocabulary of the statements, what each
   reader function does on parseable units, and the soundness of the table checks. *)
From Coq Require Import QArith Qabs Qround List ZArith Bool String Ascii Lia Lqa.
From Verif Require Import Base.Flat Proofs.FlatFacts Model.UnitAlg Proofs.UnitAlgProofs Model.UnitReader.
Import ListNotations.
Open Scope string_scope.
Open Scope Q_scope.

(* one long registry name, one meaning *)
Definition table_wf (T : tables) : Prop :=
  forall s1 s2 p1 p2, t_parse T s1 = Some p1 -> t_parse T s2 = Some p2 ->
                      pu_canon p1 = pu_canon p2 -> pu_same p1 p2 = true.

(* the pair (value, remembered unit) denotes the quantity q (q in registry base units) *)
Definition denotes (T : tables) (cur : uref) (v q : Q) : Prop :=
  exists c, parse_uref T cur = Some c /\ to_base c v == q.

(* the conditional restore of ConvertUnits succeeds and restores exactly the text [c]:
   LookupUnits recognises the long name pint reports for the unit the value was converted to *)
Definition restores (T : tables) (c : string) (o : punit) : Prop :=
  exists b, t_lookup T (pu_canon o) = LItem c b.

(* equality of reader results up to == on the value *)
Definition state_equiv (a b : pstate) : Prop :=
  p_value a == p_value b /\ p_cur a = p_cur b /\ p_provided a = p_provided b.
Definition rres_equiv (a b : rres pstate) : Prop :=
  match a, b with
  | ROk x, ROk y => state_equiv x y
  | RErr c, RErr d => c = d
  | _, _ => False
  end.

Global Instance rres_equiv_refl : Reflexive rres_equiv.
Proof. intros [st|e]; cbn; [repeat split|]; reflexivity. Qed.

Lemma denotes_enum T c o v q : t_parse T c = Some o -> to_base o v == q -> denotes T (UEnum c) v q.
Proof. intros P H. exists o. split; assumption. Qed.

Lemma denotes_converted T c o n v x :
  t_parse T c = Some o -> ~ pu_fac o == 0 -> v == convert n o x -> denotes T (UEnum c) v (to_base n x).
Proof. intros P Ho Hv. apply (denotes_enum T c o _ _ P). rewrite Hv. apply convert_denote. exact Ho. Qed.

Lemma lookup_units_catalogue scan sym fuel s c :
  scan_find s scan = Some c -> lookup_units scan sym fuel s = LItem s c.
Proof. intros H. destruct fuel; cbn [lookup_units]; rewrite H; reflexivity. Qed.

(* whatever LookupUnits returns is a member of the catalogue: each round either finds its text in the catalogue or goes
   on with the registry's symbol for it *)
Lemma lookup_units_item scan sym : forall fuel s t c,
  lookup_units scan sym fuel s = LItem t c -> scan_find t scan = Some c.
Proof.
  induction fuel as [|f IH]; intros s t c H; cbn [lookup_units] in H; destruct (scan_find s scan) eqn:E.
  - injection H as <- <-. exact E.
  - discriminate.
  - injection H as <- <-. exact E.
  - destruct (assoc_str s sym) as [[y|]|]; try discriminate.
    destruct (String.eqb y s); [discriminate|]. exact (IH y t c H).
Qed.

(* What a successful ConvertUnits returns: the units are one unit and nothing changes, or the value is converted and the
   remembered unit is what the second LookupUnits (on the long name pint reports) finds, else what the first one found. *)
Lemma convert_units_pint_ok T c u x o n v cur' :
  t_parse T c = Some o -> t_parse T u = Some n ->
  convert_units_pint T (UEnum c) x u = ROk (v, cur') ->
  pu_canon o = pu_canon n /\ v = x /\ cur' = UEnum c \/
  pu_canon o <> pu_canon n /\ v = convert n o x /\
  cur' = match t_lookup T (pu_canon o) with LItem s _ => UEnum s | _ => uref_of_lres (t_lookup T u) end.
Proof.
  intros Po Pn H. unfold convert_units_pint in H. rewrite Po, Pn in H.
  destruct (String.eqb_spec (pu_canon o) (pu_canon n)) as [E|N].
  - left. injection H as <- <-. auto.
  - right. split; [exact N|].
    (* H is an error unless the first LookupUnits does not raise, the dimensions agree and the second does not raise *)
    destruct (t_lookup T u); [| |discriminate].
    all: destruct (negb (same_dim o n)); [discriminate|].
    all: destruct (t_lookup T (pu_canon o)); [| |discriminate].
    all: injection H as <- <-; split; reflexivity.
Qed.

(* So the VALUE is always the user's value converted to the unit the parameter is held in; only the remembered unit
   depends on the restore. *)
Lemma convert_units_pint_value T c u x o n v cur' :
  table_wf T -> t_parse T c = Some o -> t_parse T u = Some n -> ~ pu_fac o == 0 ->
  convert_units_pint T (UEnum c) x u = ROk (v, cur') -> v == convert n o x.
Proof.
  intros WF Po Pn Ho H.
  destruct (convert_units_pint_ok T c u x o n v cur' Po Pn H) as [(E & -> & _)|(_ & -> & _)]; [|reflexivity].
  (* two spellings of one unit *)
  rewrite <- (convert_same_source o n o x (WF _ _ _ _ Po Pn E)). symmetry. apply convert_id. exact Ho.
Qed.

(* When the restore succeeds (or the units were the same to begin with) the remembered unit is again the unit the
   parameter was in, and so the pair denotes what the user wrote. *)
Lemma convert_units_pint_sound T c u x o n v cur' :
  table_wf T ->
  t_parse T c = Some o -> t_parse T u = Some n -> ~ pu_fac o == 0 ->
  (pu_canon o = pu_canon n \/ restores T c o) ->
  convert_units_pint T (UEnum c) x u = ROk (v, cur') ->
  v == convert n o x /\ cur' = UEnum c /\ denotes T cur' v (to_base n x).
Proof.
  intros WF Po Pn Ho Hres H.
  pose proof (convert_units_pint_value T c u x o n v cur' WF Po Pn Ho H) as Hv.
  assert (Hc : cur' = UEnum c).
  { destruct (convert_units_pint_ok T c u x o n v cur' Po Pn H) as [(_ & _ & Hc)|(N & _ & Hc)]; [exact Hc|].
    destruct Hres as [E|[b Hl]]; [contradiction|]. rewrite Hl in Hc. exact Hc. }
  subst cur'. split; [exact Hv|]. split; [reflexivity|]. exact (denotes_converted T c o n v x Po Ho Hv).
Qed.

Lemma convert_units_pint_total T c u x o n :
  t_parse T c = Some o -> t_parse T u = Some n -> same_dim o n = true ->
  (pu_canon o = pu_canon n \/ (t_lookup T u <> LRaise /\ t_lookup T (pu_canon o) <> LRaise)) ->
  exists r, convert_units_pint T (UEnum c) x u = ROk r.
Proof.
  intros Po Pn D H. unfold convert_units_pint. rewrite Po, Pn, D.
  destruct (String.eqb_spec (pu_canon o) (pu_canon n)) as [_|Ec]; [eexists; reflexivity|].
  destruct H as [E|[L1 L2]]; [contradiction|]. cbn [negb].
  destruct (t_lookup T u); [| |contradiction].
  all: destruct (t_lookup T (pu_canon o)); [| |contradiction].
  all: eexists; reflexivity.
Qed.

(* without the restore the remembered unit is what LookupUnits made of the user's text: value right, unit stale *)
Lemma convert_units_pint_stale T c u x o n s b :
  t_parse T c = Some o -> t_parse T u = Some n -> pu_canon o <> pu_canon n -> same_dim o n = true ->
  t_lookup T u = LItem s b -> t_lookup T (pu_canon o) = LNone ->
  convert_units_pint T (UEnum c) x u = ROk (convert n o x, UEnum s).
Proof.
  intros Po Pn Hc D L1 L2. unfold convert_units_pint. rewrite Po, Pn, L1, D, L2.
  destruct (String.eqb_spec (pu_canon o) (pu_canon n)); [contradiction|reflexivity].
Qed.

(* ReadParameter: the validation step cannot tell == values apart *)

Global Instance Qtrunc_wd : Proper (Qeq ==> eq) Qtrunc.
Proof. intros a b E. unfold Qtrunc. rewrite !E. reflexivity. Qed.

Lemma accept_compat sp st v w cur : v == w -> rres_equiv (accept sp st v cur) (accept sp st w cur).
Proof.
  intros E. unfold accept.
  (* every test gives the same boolean on v and on w *)
  rewrite (Qeqb_comp v w E _ _ (Qeq_refl (s_default sp))), (Qeqb_comp v w E _ _ (Qeq_refl (p_value st))),
          (Qltb_wd v w E _ _ (Qeq_refl (s_min sp))), (Qltb_wd _ _ (Qeq_refl (s_max sp)) v w E), (Qtrunc_wd v w E).
  destruct (s_kind sp); [|reflexivity].
  destruct (Qeq_bool w (p_value st)); [reflexivity|]. destruct (_ || _); [reflexivity|].
  split; [exact E|split; reflexivity].
Qed.

(* THE reader-level statement of the property: writing "x u" has exactly the effect of writing the equivalent
   value y in the unit the parameter is held in (same value up to ==, same remembered unit, same flags, same error) *)
Lemma read_any_unit_as_default T sp st c u x y o n :
  table_wf T -> s_currency sp = false -> p_cur st = UEnum c ->
  t_parse T c = Some o -> t_parse T u = Some n -> ~ pu_fac o == 0 -> same_dim o n = true ->
  (pu_canon o = pu_canon n \/ (restores T c o /\ t_lookup T u <> LRaise)) ->
  y == convert n o x ->
  rres_equiv (read_param T sp st x (Some u)) (read_param T sp st y None).
Proof.
  intros WF Hc Hcur Po Pn Ho D Hres Hy.
  unfold read_param, convert_units. rewrite Hc, Hcur.
  destruct (convert_units_pint_total T c u x o n Po Pn D) as [[v cur'] Hr].
  { destruct Hres as [E|[[b R] L]]; [left; exact E|right]. split; [exact L|]. rewrite R. discriminate. }
  rewrite Hr.
  destruct (convert_units_pint_sound T c u x o n v cur' WF Po Pn Ho) as (Hv & -> & _); [tauto|exact Hr|].
  apply accept_compat. rewrite Hv, Hy. reflexivity.
Qed.

(* an accepted float entry leaves the value read (up to ==: an entry equal to the value held keeps that value) *)
Lemma accept_float_ok sp st v cur st' :
  s_kind sp = KFloat -> accept sp st v cur = ROk st' -> p_value st' == v /\ p_cur st' = cur.
Proof.
  intros Hk H. unfold accept in H. rewrite Hk in H.
  destruct (Qeq_bool v (p_value st)) eqn:Eq.
  - injection H as <-. split; [symmetry; apply Qeq_bool_eq; exact Eq|reflexivity].
  - destruct (_ || _); [discriminate|]. injection H as <-. split; reflexivity.
Qed.

(* and the state it leaves denotes the quantity the user wrote *)
Lemma read_denotes T sp st c u x o n st' :
  table_wf T -> s_currency sp = false -> s_kind sp = KFloat -> p_cur st = UEnum c ->
  t_parse T c = Some o -> t_parse T u = Some n -> ~ pu_fac o == 0 ->
  (pu_canon o = pu_canon n \/ restores T c o) ->
  read_param T sp st x (Some u) = ROk st' ->
  p_value st' == convert n o x /\ p_cur st' = UEnum c /\ denotes T (p_cur st') (p_value st') (to_base n x).
Proof.
  intros WF Hc Hk Hcur Po Pn Ho Hres H.
  unfold read_param, convert_units in H. rewrite Hc, Hcur in H.
  destruct (convert_units_pint T (UEnum c) x u) as [[v cur']|] eqn:Hr; [|discriminate].
  destruct (convert_units_pint_sound T c u x o n v cur' WF Po Pn Ho Hres Hr) as (Hv & -> & _).
  destruct (accept_float_ok sp st v _ st' Hk H) as [Hv' ->]. rewrite Hv in Hv'.
  split; [exact Hv'|]. split; [reflexivity|]. exact (denotes_converted T c o n _ x Po Ho Hv').
Qed.

Lemma units_match_enum pref cur : units_match pref cur = true -> exists s, (cur = UEnum s \/ cur = UStr s) /\ pref = s.
Proof.
  destruct cur as [s|s|]; cbn; intros H; try discriminate; apply String.eqb_eq in H; exists s; auto.
Qed.

(* [pref] stands beside [sp] so that a caller who knows [s_pref sp = "in"] passes the literal and the side conditions
   compute *)
Lemma convert_units_back_ok T sp st pref c p :
  s_pref sp = pref -> parse_uref T (p_cur st) = Some c -> t_parse T pref = Some p -> same_dim c p = true ->
  convert_units_back T sp st = ROk (mkP (convert c p (p_value st)) (UEnum pref) (p_provided st)).
Proof. intros <- Pc Pp D. unfold convert_units_back. rewrite Pc, Pp, D. reflexivity. Qed.

Lemma echo_state_back T sp st pref c p :
  s_pref sp = pref -> units_match pref (p_cur st) = false ->
  parse_uref T (p_cur st) = Some c -> t_parse T pref = Some p -> same_dim c p = true ->
  echo_state T sp st = ROk (mkP (convert c p (p_value st)) (UEnum pref) (p_provided st)).
Proof. intros <- M. unfold echo_state. rewrite M. apply convert_units_back_ok. reflexivity. Qed.

Lemma output_factor a b l i :
  (i < List.length l)%nat -> ~ pu_fac b == 0 ->
  to_base b (nth i (map (convert a b) l) 0) == to_base a (nth i l 0) /\
  (linear a = true -> linear b = true -> nth i (map (convert a b) l) 0 == nth i l 0 * conv_factor a b).
Proof.
  intros Hi Hb. rewrite (nth_indep _ 0 (convert a b 0)), map_nth by (rewrite map_length; exact Hi). split.
  - apply convert_denote. exact Hb.
  - intros La Lb. apply convert_linear; apply Qeq_bool_eq; assumption.
Qed.

(* one step of the dictionary loop of Outputs._convert_units *)
Lemma convert_outputs_cons T reqs k o rest r :
  convert_outputs T reqs ((k, o) :: rest) = ROk r ->
  exists o' r', output_step T (assoc_str k reqs) o = ROk o' /\ convert_outputs T reqs rest = ROk r' /\ r = (k, o') :: r'.
Proof.
  cbn [convert_outputs]. destruct (output_step T (assoc_str k reqs) o) as [o'|]; [|discriminate].
  destruct (convert_outputs T reqs rest) as [r'|]; [|discriminate]. intros [= <-]. eauto.
Qed.

Lemma assoc_str_in {A} k : forall (l : list (string * A)) v, assoc_str k l = Some v -> In (k, v) l.
Proof.
  induction l as [|[k' v'] r IH]; intros v H; cbn in H; [discriminate|].
  destruct (String.eqb_spec k k') as [<-|_].
  - injection H as <-. left. reflexivity.
  - right. apply IH. exact H.
Qed.

Lemma wf_pint_against_in c : forall l s d,
  wf_pint_against c l = true -> In (s, Some d) l -> pu_canon c = pu_canon d -> pu_same c d = true.
Proof.
  induction l as [|[s0 [d0|]] r IH]; intros s d H Hin Hc; cbn [wf_pint_against] in H.
  - destruct Hin.
  - apply andb_prop in H. destruct H as [H1 H2]. destruct Hin as [[= <- <-]|Hin]; [|exact (IH s d H2 Hin Hc)].
    rewrite Hc, String.eqb_refl in H1. exact H1.
  - destruct Hin as [[=]|Hin]. exact (IH s d H Hin Hc).
Qed.

Lemma wf_pint_from_in all : forall l s c,
  wf_pint_from l all = true -> In (s, Some c) l -> wf_pint_against c all = true /\ ~ pu_fac c == 0.
Proof.
  induction l as [|[s0 [c0|]] r IH]; intros s c H Hin; cbn [wf_pint_from] in H.
  - destruct Hin.
  - apply andb_prop in H. destruct H as [H H3]. apply andb_prop in H. destruct H as [H1 H2].
    destruct Hin as [[= <- <-]|Hin]; [|exact (IH s c H3 Hin)].
    split; [exact H2|]. apply Qeq_bool_neq, negb_true_iff. exact H1.
  - destruct Hin as [[=]|Hin]. exact (IH s c H Hin).
Qed.

Lemma mk_tables_parse pint scan sym cc s p :
  t_parse (mk_tables pint scan sym cc) s = Some p -> In (s, Some p) pint.
Proof.
  cbn. destruct (assoc_str s pint) as [r|] eqn:E; [|discriminate]. intros ->. apply assoc_str_in. exact E.
Qed.

Lemma wf_pint_sound pint scan sym cc :
  wf_pint pint = true -> table_wf (mk_tables pint scan sym cc).
Proof.
  intros W s1 s2 p1 p2 H1 H2. apply mk_tables_parse in H1, H2.
  apply (wf_pint_against_in p1 pint s2 p2); [|exact H2]. apply (wf_pint_from_in pint pint s1 p1 W H1).
Qed.

Lemma wf_pint_nonzero pint scan sym cc s p :
  wf_pint pint = true -> t_parse (mk_tables pint scan sym cc) s = Some p -> ~ pu_fac p == 0.
Proof. intros W H. apply mk_tables_parse in H. apply (wf_pint_from_in pint pint s p W H). Qed.

(* decidable sufficient condition, evaluated on the generated catalogue *)

Definition is_raise (l : lres) : bool := match l with LRaise => true | _ => false end.
Definition restores_b (T : tables) (c : string) (o : punit) : bool :=
  match t_lookup T (pu_canon o) with LItem s _ => String.eqb s c | _ => false end.

(* [pair_good T pref u]: reading a value in unit u into a parameter held in unit pref provably works *)
Definition pair_good (T : tables) (pref u : string) : bool :=
  match t_parse T pref, t_parse T u with
  | Some o, Some n =>
      same_dim o n &&
      (String.eqb (pu_canon o) (pu_canon n) || (restores_b T pref o && negb (is_raise (t_lookup T u))))
  | _, _ => false
  end.

Lemma restores_b_true T c o : restores_b T c o = true -> restores T c o.
Proof.
  unfold restores_b, restores. destruct (t_lookup T (pu_canon o)) as [s b| |]; try discriminate.
  intros ->%String.eqb_eq. eexists; reflexivity.
Qed.

Lemma pair_good_reads T sp st pref u x y :
  table_wf T -> (forall s p, t_parse T s = Some p -> ~ pu_fac p == 0) ->
  s_currency sp = false -> p_cur st = UEnum pref ->
  pair_good T pref u = true ->
  exists o n, t_parse T pref = Some o /\ t_parse T u = Some n /\
    (y == convert n o x -> rres_equiv (read_param T sp st x (Some u)) (read_param T sp st y None)).
Proof.
  intros WF NZ Hc Hcur G. unfold pair_good in G.
  destruct (t_parse T pref) as [o|] eqn:Po; [|discriminate].
  destruct (t_parse T u) as [n|] eqn:Pn; [|discriminate].
  apply andb_true_iff in G. destruct G as [D G].
  exists o, n. split; [reflexivity|]. split; [reflexivity|].
  apply (read_any_unit_as_default T sp st pref u x y o n WF Hc Hcur Po Pn (NZ _ _ Po) D).
  apply orb_true_iff in G. destruct G as [G|G].
  - left. apply String.eqb_eq. exact G.
  - right. apply andb_true_iff in G. destruct G as [R L]. split; [apply restores_b_true; exact R|].
    intros E. rewrite E in L. discriminate.
Qed.

(* the reader as it stands refutes the unrestricted clauses: the witness on the registry fragment pin_tables *)

Definition st_temperature : pstate := mkP 70 (UEnum "degC") false.

(* "Injection Temperature, 122 degF": accepted, held as 50 (degC) but remembered as degF *)
Lemma witness_122_degF :
  read_param pin_tables spec_temperature st_temperature 122 (Some "degF") = ROk (mkP (convert pin_degF pin_degC 122) (UEnum "degF") true)
  /\ convert pin_degF pin_degC 122 == 50.
Proof. vm_compute. split; reflexivity. Qed.
