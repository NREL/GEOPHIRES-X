(* Proofs/Utf8Proofs.v - lemmas about Model/Utf8.v (C12): decoding undoes encoding on every text of scalar values,
   and a byte that can start no character is an error wherever it stands. *)
From Coq Require Import NArith List Bool Lia.
From Verif Require Import Base.UStr Model.UTokenizer Model.Utf8.
Import ListNotations.
Open Scope N_scope.

Lemma in_range lo hi b : (lo <=? b) && (b <=? hi) = true <-> lo <= b <= hi.
Proof. now rewrite andb_true_iff, !N.leb_le. Qed.

Lemma outside_range lo hi b : b < lo \/ hi < b -> (lo <=? b) && (b <=? hi) = false.
Proof. intros H. apply andb_false_iff. rewrite !N.leb_gt. tauto. Qed.

Lemma guard_lt b0 b1 k m : (b0 = k -> m <= b1) -> negb ((b0 =? k) && (b1 <? m)) = true.
Proof. intros H. apply negb_true_iff, andb_false_iff. destruct (N.eqb_spec b0 k); [right; now apply N.ltb_ge, H | now left]. Qed.

Lemma guard_gt b0 b1 k m : (b0 = k -> b1 <= m) -> negb ((b0 =? k) && (m <? b1)) = true.
Proof. intros H. apply negb_true_iff, andb_false_iff. destruct (N.eqb_spec b0 k); [right; now apply N.ltb_ge, H | now left]. Qed.

(* The decoder on one well-formed sequence of 2, 3 and 4 bytes.  The tail is hidden while the head is unfolded:
   otherwise [cbn] also unfolds the branch that reads b0 as ASCII and decodes the explicit tail a second time. *)
Lemma decode2 b0 b1 r : 194 <= b0 <= 223 -> 128 <= b1 <= 191 ->
  utf8_decode (b0 :: b1 :: r) = option_map (cons ((b0 - 192) * 64 + (b1 - 128))) (utf8_decode r).
Proof.
  intros H0 H1. set (t := b1 :: r). cbn [utf8_decode]. rewrite (proj2 (N.ltb_ge b0 128)) by lia. subst t. cbn iota.
  unfold cont. now rewrite !(proj2 (in_range _ _ _)).
Qed.

Lemma decode3 b0 b1 b2 r : 224 <= b0 <= 239 -> 128 <= b1 <= 191 -> 128 <= b2 <= 191 ->
  (b0 = 224 -> 160 <= b1) -> (b0 = 237 -> b1 <= 159) ->
  utf8_decode (b0 :: b1 :: b2 :: r)
  = option_map (cons ((b0 - 224) * 4096 + (b1 - 128) * 64 + (b2 - 128))) (utf8_decode r).
Proof.
  intros H0 H1 H2 Lo Hi. set (t := b1 :: b2 :: r). cbn [utf8_decode]. rewrite (proj2 (N.ltb_ge b0 128)) by lia. subst t. cbn iota.
  rewrite outside_range by lia. unfold cont. now rewrite !(proj2 (in_range _ _ _)), guard_lt, guard_gt.
Qed.

Lemma decode4 b0 b1 b2 b3 r : 240 <= b0 <= 244 -> 128 <= b1 <= 191 -> 128 <= b2 <= 191 -> 128 <= b3 <= 191 ->
  (b0 = 240 -> 144 <= b1) -> (b0 = 244 -> b1 <= 143) ->
  utf8_decode (b0 :: b1 :: b2 :: b3 :: r)
  = option_map (cons ((b0 - 240) * 262144 + (b1 - 128) * 4096 + (b2 - 128) * 64 + (b3 - 128))) (utf8_decode r).
Proof.
  intros H0 H1 H2 H3 Lo Hi. set (t := b1 :: b2 :: b3 :: r). cbn [utf8_decode]. rewrite (proj2 (N.ltb_ge b0 128)) by lia. subst t. cbn iota.
  rewrite !outside_range by lia. unfold cont. now rewrite !(proj2 (in_range _ _ _)), guard_lt, guard_gt.
Qed.

Lemma div64 c : c = 64 * (c / 64) + c mod 64 /\ c mod 64 < 64.
Proof. split; [apply N.div_mod' | now apply N.mod_lt]. Qed.

Lemma decode_enc1 c rest : scalar c = true -> utf8_decode (enc1 c ++ rest) = option_map (cons c) (utf8_decode rest).
Proof.
  intros S. assert (S' : c < 55296 \/ 57343 < c < 1114112).
  { unfold scalar in S. apply orb_prop in S as [S|S]; [left; now apply N.ltb_lt|]. right. apply andb_prop in S as [S1 S2]. split; now apply N.ltb_lt. }
  clear S. unfold enc1.
  (* c in base 64: c = ((q3 * 64 + m2) * 64 + m1) * 64 + m0; the bytes of [enc1 c] are markers plus these digits, and
     every side condition below is linear in them *)
  change 4096 with (64 * 64). change 262144 with (64 * 64 * 64). rewrite <- !N.div_div by discriminate.
  destruct (div64 c) as [D0 L0], (div64 (c / 64)) as [D1 L1], (div64 (c / 64 / 64)) as [D2 L2].
  revert D0 L0 D1 L1 D2 L2.
  generalize (c mod 64), ((c / 64) mod 64), ((c / 64 / 64) mod 64), (c / 64 / 64 / 64).
  generalize (c / 64 / 64). generalize (c / 64). intros q1 q2 m0 m1 m2 q3 D0 L0 D1 L1 D2 L2.
  destruct (N.ltb_spec c 128) as [E1|E1]; [cbn [app utf8_decode]; now rewrite (proj2 (N.ltb_lt c 128))|].
  destruct (N.ltb_spec c 2048) as [E2|E2]; [|destruct (N.ltb_spec c 65536) as [E3|E3]]; cbn [app].
  - rewrite decode2 by lia. do 2 f_equal. lia.
  - rewrite decode3 by lia. do 2 f_equal. lia.
  - rewrite decode4 by lia. do 2 f_equal. lia.
Qed.

Lemma decode_encode_app t : forall bytes, forallb scalar t = true ->
  utf8_decode (utf8_encode t ++ bytes) = option_map (app t) (utf8_decode bytes).
Proof.
  induction t as [|c r IH]; intros bytes H; [cbn; now destruct (utf8_decode bytes)|].
  cbn in H. apply andb_prop in H as [Hc Hr]. unfold utf8_encode. cbn [flat_map]. rewrite <- app_assoc.
  rewrite decode_enc1 by assumption. fold (utf8_encode r). rewrite IH by assumption. now destruct (utf8_decode bytes).
Qed.

Lemma decode_encode t : forallb scalar t = true -> utf8_decode (utf8_encode t) = Some t.
Proof. intros H. rewrite <- (app_nil_r (utf8_encode t)), decode_encode_app by assumption. cbn. now rewrite app_nil_r. Qed.

(* a stray continuation byte, or a byte that can start nothing, is an error whatever follows it *)
Lemma decode_bad_lead b rest : (128 <=? b) && (b <=? 193) || (245 <=? b) = true -> utf8_decode (b :: rest) = None.
Proof.
  intros B. assert (B' : 128 <= b <= 193 \/ 245 <= b).
  { apply orb_prop in B as [B|B]; [left; now apply in_range | right; now apply N.leb_le]. }
  cbn [utf8_decode]. rewrite (proj2 (N.ltb_ge b 128)) by lia.
  destruct rest as [|b1 [|b2 [|b3 r]]]; rewrite ?outside_range by lia; reflexivity.
Qed.
