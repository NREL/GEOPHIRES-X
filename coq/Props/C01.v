(* Props/C01.v - Levelized cost equals its documented definition.  The lemmas are in Proofs/LcoeProofs.v. *)
From Coq Require Import QArith List ZArith Bool.
From Verif Require Import Base.Flat Model.CashFlow Model.Lcoe Proofs.LcoeProofs.
Import ListNotations.
Open Scope Q_scope.

(* the whole function: for every lifetime, every series of that length, every economic model, end-use and plant
   type, the numpy-vector computation of the code equals the documented closed forms (LCOE, LCOH, LCOC) *)
Theorem C01_code_is_documented_formula : forall c : lc_in, wf_l c -> teq (lcoe_code c) (lcoe_spec c).
Proof. exact lcoe_code_is_spec. Qed.
Print Assumptions C01_code_is_documented_formula.

(* standard levelized cost: sum over the discount vector = sum_{t<n} x_t/(1+d)^t *)
Theorem C01_std : forall (c : lc_in) (cap : Q) (annual energy : list Q),
  length annual = l_life c -> length energy = l_life c -> ~ 1 + l_disc c == 0 ->
  std_num c cap annual == (1 + l_inflc c) * cap + npv_sigma_from (l_disc c) 0 annual /\
  std_den c energy == npv_sigma_from (l_disc c) 0 energy.
Proof.
  intros c cap annual energy Ha He Hd. split.
  - rewrite (std_num_eq c cap annual Ha). unfold std_num_spec. now rewrite geo0_is_npv_sigma.
  - rewrite (std_den_eq c energy He). unfold std_den_spec. now apply geo0_is_npv_sigma.
Qed.
Print Assumptions C01_std.

(* BICYCLE: inflation and discount vectors over t = 1..n *)
Theorem C01_bicycle : forall (c : lc_in) (cap : Q) (annual energy : list Q),
  length annual = l_life c -> length energy = l_life c ->
  bic_num c cap annual == bic_num_spec c cap annual /\
  bic_den c energy == geo_sigma_from (bic_qg c) 1 energy.
Proof.
  intros c cap annual energy Ha He. split.
  - now apply bic_num_eq.
  - rewrite (bic_den_eq c energy He). unfold bic_den_spec. apply geo1_is_geo_sigma.
Qed.
Print Assumptions C01_bicycle.

Theorem C01_fcr_electricity : forall c : lc_in, l_econ c = 1%Z -> classify (l_enduse c) (l_plant c) = LElec ->
  lcoe_spec c = ((l_fcr c * (1 + l_inflc c) * l_ccap c + l_coam c + 0) / (sumQ (l_net c) / natQ (length (l_net c))) * e8, 0, 0).
Proof. intros c He Hk. unfold lcoe_spec, lcoe_gen. rewrite Hk. cbv zeta. now rewrite lev_fcr. Qed.
Print Assumptions C01_fcr_electricity.

Theorem C01_std_electricity : forall c : lc_in, l_econ c = 2%Z -> classify (l_enduse c) (l_plant c) = LElec ->
  lcoe_spec c = (((1 + l_inflc c) * l_ccap c + geo0 (/ (1 + l_disc c)) (repeat (l_coam c) (l_life c)))
                 / geo0 (/ (1 + l_disc c)) (l_net c) * e8, 0, 0).
Proof. intros c He Hk. unfold lcoe_spec, lcoe_gen. rewrite Hk. cbv zeta. now rewrite lev_std. Qed.
Print Assumptions C01_std_electricity.

Theorem C01_std_heat : forall c : lc_in, l_econ c = 2%Z -> classify (l_enduse c) (l_plant c) = LHeat ->
  lcoe_spec c = (0, ((1 + l_inflc c) * l_ccap c
                     + geo0 (/ (1 + l_disc c)) (map (Qplus (l_coam c)) (map (Qmult (l_elec_buy c / e6)) (l_pump c))))
                    / geo0 (/ (1 + l_disc c)) (l_heat c) * (e8 * mmbtu), 0).
Proof. intros c He Hk. unfold lcoe_spec, lcoe_gen. rewrite Hk. cbv zeta. now rewrite lev_std. Qed.
Print Assumptions C01_std_heat.

Theorem C01_bicycle_electricity : forall c : lc_in,
  l_econ c <> 1%Z -> l_econ c <> 2%Z -> classify (l_enduse c) (l_plant c) = LElec ->
  lcoe_spec c = (bic_num_spec c (l_ccap c) (repeat (l_coam c) (l_life c)) / geo1 (bic_qg c) (l_net c) * e8, 0, 0).
Proof.
  intros c H1 H2 Hk. unfold lcoe_spec, lcoe_gen. rewrite Hk. cbv zeta. now rewrite lev_bic.
Qed.
Print Assumptions C01_bicycle_electricity.

(* all 8 x 9 (end-use, plant type) cells select the documented branch *)
Theorem C01_branch_table : forall e p : Z, In e enduses -> In p plants -> classify e p = documented_kind e p.
Proof.
  (* only the direct-use option looks at the plant type *)
  intros e p He Hp. repeat (destruct He as [<- | He]; [try reflexivity|]); [|destruct He].
  repeat (destruct Hp as [<- | Hp]; [reflexivity|]). destruct Hp.
Qed.
Print Assumptions C01_branch_table.

(* the capital and O&M shares that lcoe_gen hands to the electricity and the heat levelized cost of a cogeneration plant
   (cap_e, cap_h, om_e, om_h in Model/Lcoe.v) *)
Theorem C01_cogen_split : forall c : lc_in,
  l_ccap c * l_ratio c + l_ccap c * (1 - l_ratio c) == l_ccap c /\
  l_coam c * l_ratio c + l_coam c * (1 - l_ratio c) == l_coam c.
Proof. split; ring. Qed.
Print Assumptions C01_cogen_split.

(* what the "breakeven price" is: selling each year's energy at the levelized cost recovers, in present value, exactly the
   (construction-inflated) capital cost plus the discounted O&M - standard model; annualised for the FCR model *)
Theorem C01_breakeven_std : forall c : lc_in, l_econ c = 2%Z -> classify (l_enduse c) (l_plant c) = LElec ->
  ~ geo0 (/ (1 + l_disc c)) (l_net c) == 0 ->
  let price_usd_per_kwh := fst (fst (lcoe_spec c)) / 100 in
  geo0 (/ (1 + l_disc c)) (map (fun e => e * (price_usd_per_kwh / 1000000)) (l_net c))
  == (1 + l_inflc c) * l_ccap c + geo0 (/ (1 + l_disc c)) (repeat (l_coam c) (l_life c)).
Proof.
  intros c He Hk Hden. cbv zeta. rewrite (C01_std_electricity c He Hk). now apply discounted_price_recovers.
Qed.
Print Assumptions C01_breakeven_std.

Theorem C01_breakeven_fcr : forall c : lc_in, l_econ c = 1%Z -> classify (l_enduse c) (l_plant c) = LElec ->
  ~ sumQ (l_net c) == 0 -> ~ natQ (length (l_net c)) == 0 ->
  let price_usd_per_kwh := fst (fst (lcoe_spec c)) / 100 in
  avg (l_net c) * (price_usd_per_kwh / 1000000) == l_fcr c * (1 + l_inflc c) * l_ccap c + l_coam c.
Proof.
  intros c He Hk Hs Hn. cbv zeta. rewrite (C01_fcr_electricity c He Hk). cbn [fst].
  rewrite average_price_recovers by assumption. apply Qplus_0_r.
Qed.
Print Assumptions C01_breakeven_fcr.

(* the reduced-fraction form executed by the correspondence computes the same values *)
Theorem C01_executable_form : forall c : lc_in, wf_l c -> teq (lcoe_exec c) (lcoe_spec c).
Proof. intros c _. apply lcoe_exec_is_spec. Qed.
Print Assumptions C01_executable_form.

(* a cogeneration input under the standard model that meets wf_l, and the signs of its three results *)
Definition ex1 : lc_in :=
  {| l_econ := 2; l_enduse := 31; l_plant := 1; l_ccap := 100; l_coam := 3; l_ratio := 3#4; l_fcr := 1#10; l_inflc := 1#50;
     l_disc := 7#100; l_fib := 1#2; l_bir := 1#20; l_ctr := 3#10; l_eir := 1#10; l_rinfl := 1#50; l_ptr := 1#100; l_gtr := 1#50;
     l_ritc := 0; l_life := 3; l_net := [90000000; 80000000; 70000000]; l_heat := [50000000; 40000000; 30000000]; l_cool := [];
     l_pump := [2000000; 2100000; 2200000]; l_hp := []; l_elec_buy := 7#100; l_avg_pump := 0; l_avg_hp := 0; l_avg_ng := 0;
     l_ng := []; l_demand := 0 |}.
Example ex1_wf : wf_l ex1.
Proof. unfold wf_l; simpl. repeat split. Qed.
Example ex1_values : let '(a, b, d) := lcoe_exec ex1 in (0 < a /\ 0 < b /\ d == 0).
Proof. vm_compute. repeat split; discriminate. Qed.
