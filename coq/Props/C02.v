(* Props/C02.v - Energy flows balance at every time step and over every year.
   The statements, with short proofs: from the lemmas of Proofs/EnergyProofs.v, or from a definition of the model where
   the fact is one step from it.
   The model (Model/Energy.v) is tied to the current source by the correspondence of tools/props/C02.py. *)
From Coq Require Import QArith Qabs Qminmax List ZArith Bool Lia Lqa.
From Verif Require Import Base.Flat Model.Energy Proofs.FlatFacts Proofs.EnergyProofs Gen.EnergyEnums.
Import ListNotations.
Open Scope Q_scope.

(* heat extracted = wells x flow per well x heat capacity x (production - injection temperature), every step,
   for every series length *)
Theorem C02_extracted : forall n m cp tinj tprod,
  length (heat_extracted n m cp tinj tprod) = length tprod /\
  forall t, (t < length tprod)%nat ->
    nth t (heat_extracted n m cp tinj tprod) 0 == n * m * cp * (nth t tprod 0 - tinj) / 1000000.
Proof. split. apply heat_extracted_length. intros t. apply heat_extracted_nth. Qed.
Print Assumptions C02_extracted.

(* electricity_heat_production, every end-use branch, every step of every series: the extracted heat is the
   definition above and it is fully accounted for: electricity-only sends all of it to the power plant; in the
   topping, bottoming and parallel cogeneration branches
   heat towards electricity + useful heat / end-use efficiency = heat extracted *)
Theorem C02_conservation : forall eu avail etau n m cp tprod tinj reinj tchp eff chpf o,
  ehp eu avail etau n m cp tprod tinj reinj tchp eff chpf = Ok o ->
  length (o_he o) = length tprod /\
  forall t, (t < length tprod)%nat ->
    nth t (o_he o) 0 == n * m * cp * (nth t tprod 0 - tinj) / 1000000 /\
    match eu with
    | EU_ELEC => arr_at (o_hete o) t == nth t (o_he o) 0
    | EU_HEAT => True
    | _ => ~ eff == 0 -> arr_at (o_hete o) t + nth t (o_hp o) 0 / eff == nth t (o_he o) 0
    end.
Proof.
  intros eu avail etau n m cp tprod tinj reinj tchp eff chpf o E.
  destruct (ehp_steps E) as (Hhe & _).
  split. rewrite Hhe. apply heat_extracted_length.
  intros t Ht. split. rewrite Hhe. apply heat_extracted_nth, Ht. exact (ehp_conserved E t Ht).
Qed.
Print Assumptions C02_conservation.

(* what each branch delivers: topping uses the reinjection temperature as the split point, bottoming the
   bottoming-cycle entering temperature, parallel the flow fraction (which also scales the electricity) *)
Theorem C02_branches : forall eu avail etau n m cp tprod tinj reinj tchp eff chpf o,
  ehp eu avail etau n m cp tprod tinj reinj tchp eff chpf = Ok o ->
  forall t, (t < length tprod)%nat ->
  match eu with
  | EU_ELEC | EU_HEAT => o_hp o = []
  | EU_TOP => length reinj = length tprod /\
              nth t (o_hp o) 0 == eff * (n * m * cp * (nth t reinj 0 - tinj) / 1000000) /\
              arr_at (o_hete o) t == n * m * cp * (nth t tprod 0 - nth t reinj 0) / 1000000
  | EU_BOT => nth t (o_hp o) 0 == eff * (n * m * cp * (nth t tprod 0 - tchp) / 1000000) /\
              arr_at (o_hete o) t == n * m * cp * (tchp - tinj) / 1000000
  | EU_PAR => nth t (o_hp o) 0 == eff * chpf * nth t (o_he o) 0 /\
              arr_at (o_hete o) t == (1 - chpf) * nth t (o_he o) 0 /\
              ((t < length avail)%nat ->
               nth t (o_el o) 0 == nth t avail 0 * nth t etau 0 * n * m * (1 - chpf))
  end.
Proof.
  intros eu avail etau n m cp tprod tinj reinj tchp eff chpf o E t Ht.
  destruct (ehp_steps E) as (_ & Hel & H). specialize (H t Ht).
  destruct eu; [apply H | exact H | exact H | exact H |].
  split. apply H. split. apply H. apply Hel.
Qed.
Print Assumptions C02_branches.

(* net electricity = gross electricity - pumping power, every step *)
Theorem C02_net : forall el pump net,
  net_series el pump = Some net ->
  length net = length el /\ length pump = length el /\
  forall t, (t < length el)%nat -> nth t net 0 == nth t el 0 - nth t pump 0.
Proof.
  intros el pump net E. apply net_series_some in E. destruct E as [L ->]. rewrite map2_length.
  split. lia. split. lia. intros t Ht. rewrite map2_nth by lia. reflexivity.
Qed.
Print Assumptions C02_net.

(* heat pump (COP <> 1): W = extracted / (COP - 1), delivered heat = (extracted + W) x efficiency = COP x W x efficiency *)
Theorem C02_cop_heatpump : forall cop eff he t, ~ cop == 1 -> (t < length he)%nat ->
  nth t (heatpump_elec cop he) 0 == nth t he 0 / (cop - 1) /\
  nth t (heatpump_heat cop eff he) 0 == (nth t he 0 + nth t (heatpump_elec cop he) 0) * eff /\
  nth t (heatpump_heat cop eff he) 0 == cop * nth t (heatpump_elec cop he) 0 * eff.
Proof.
  intros cop eff he t Hc Ht. unfold heatpump_elec, heatpump_heat. rewrite !nth_map_Q by exact Ht.
  assert (~ cop - 1 == 0) by lra. repeat split; field; assumption.
Qed.
Print Assumptions C02_cop_heatpump.

(* absorption chiller: cooling = heat x COP x efficiency *)
Theorem C02_cop_chiller : forall cop eff hp t, (t < length hp)%nat ->
  nth t (chiller_cooling cop eff hp) 0 == nth t hp 0 * cop * eff.
Proof. intros cop eff hp t Ht. unfold chiller_cooling. rewrite nth_map_Q by exact Ht. reflexivity. Qed.
Print Assumptions C02_cop_chiller.

(* direct use / district heating: useful heat = extracted heat x end-use efficiency *)
Theorem C02_direct_use : forall eff he t, (t < length he)%nat ->
  nth t (industrial_heat eff he) 0 == nth t he 0 * eff.
Proof. intros eff he. unfold industrial_heat. apply scale_series_spec. Qed.
Print Assumptions C02_direct_use.

(* district heating, every day of every year of every lifetime, for every demand profile and well-output series:
   geothermal + peaking = demand/24, geothermal <= (interpolated) well output, peaking >= 0,
   geothermal = min(well output, demand/24) *)
Theorem C02_dh : forall life k fp demand o,
  dh_run life k fp demand = Ok o ->
  fp <> [] /\ (365 <= length demand)%nat /\
  length (d_geo o) = (life * 365)%nat /\ length (d_ng o) = (life * 365)%nat /\
  forall i j, (i < life)%nat -> (j < 365)%nat ->
    let h := interp k fp (dh_time i j) in
    let g := nth (i * 365 + j) (d_geo o) 0 in
    let p := nth (i * 365 + j) (d_ng o) 0 in
    g + p == nth j demand 0 / 24 /\ g <= h /\ 0 <= p /\ g == Qmin h (nth j demand 0 / 24).
Proof.
  (* the length of the year as a variable c = 365, see Section Year of Proofs/EnergyProofs.v *)
  pattern 365%nat. apply at_value. intros c Hc life k fp demand o E.
  destruct (dh_run_ok c Hc E) as (Hne & Hd & -> & -> & _).
  split. exact Hne. split. exact Hd. split. apply dh_years_length, Hc. split. apply dh_years_length, Hc.
  intros i j Hi Hj. cbn zeta. rewrite !(dh_years_nth c Hc) by assumption. apply dh_split_spec.
Qed.
Print Assumptions C02_dh.

(* the interpolated well output lies within any bounds of the heat series ... *)
Theorem C02_dh_interp_bounds : forall k fp t lo hi,
  fp <> [] -> (forall x, In x fp -> lo <= x <= hi) -> lo <= interp k fp t <= hi.
Proof.
  intros k fp t lo hi Hne Hb. destruct (interp_within k fp t lo hi Hne) as [Hlo Hhi].
  split; [apply Hlo|apply Hhi]; intros x Hx; apply (Hb x Hx).
Qed.
Print Assumptions C02_dh_interp_bounds.

(* ... so the geothermal supply never exceeds what the wells deliver *)
Theorem C02_dh_supply_bounded : forall life k fp demand o hi,
  dh_run life k fp demand = Ok o -> (forall x, In x fp -> x <= hi) ->
  forall i j, (i < life)%nat -> (j < 365)%nat -> nth (i * 365 + j) (d_geo o) 0 <= hi.
Proof.
  pattern 365%nat. apply at_value. intros c Hc life k fp demand o hi E Hb i j Hi Hj.
  destruct (dh_run_ok c Hc E) as (Hne & _ & -> & _). rewrite (dh_years_nth c Hc) by assumption.
  eapply Qle_trans. apply dh_split_spec. apply (interp_within k fp _ hi hi Hne), Hb.
Qed.
Print Assumptions C02_dh_supply_bounded.

(* annual peaking-boiler demand = 24 h x sum over the days of that year *)
Theorem C02_dh_annual_peaking : forall life k fp demand o i,
  dh_run life k fp demand = Ok o -> (i < life)%nat ->
  nth i (d_annual_ng o) 0 == sumQ (map dh_ng (dh_year k fp demand i)) * 24.
Proof.
  intros life k fp demand o i E Hi. destruct (dh_run_ok 365 eq_refl E) as (_ & _ & _ & _ & ->).
  rewrite map_map, (nth_map_seq (fun x => sumQ_red (map dh_ng (dh_year k fp demand x)) * 24) 0) by exact Hi.
  rewrite sumQ_red_eq. reflexivity.
Qed.
Print Assumptions C02_dh_annual_peaking.

(* integrate_time_series_slice for every series, year index and k >= 1 time steps per year, in index form:
   no sample left -> 0; one sample a -> the trapezoid (a + extrapolated)/2 over a year, linearly extrapolated only when
   the year starts at index >= 2 (the code's "slice_start_index - 1 > 0"); m+1 >= 2 samples (m = min(k, samples
   left - 1)) -> the m trapezoids it has, rescaled to one year: sum x 8760/m; always x 1000 x utilization *)
Theorem C02_integral : forall s i k util, (1 <= k)%nat ->
  integrate_slice s i k util ==
  match (length s - i * k)%nat with
  | O => 0
  | 1%nat =>
      let a := nth (i * k) s 0 in
      let extr := if Nat.ltb 0 (i * k - 1) then a + (a - nth (i * k - 1) s 0) else a in
      (a + extr) / 2 * 8760 * 1000 * util
  | S (S r) => trap_from s (i * k) (Nat.min k (S r)) * (8760 / natQ (Nat.min k (S r))) * 1000 * util
  end.
Proof. exact integrate_slice_closed. Qed.
Print Assumptions C02_integral.

(* a year whose end-of-year sample exists: the composite trapezoid rule with step 8760/k hours *)
Theorem C02_integral_full_year : forall s i k util, (1 <= k)%nat -> ((i + 1) * k < length s)%nat ->
  integrate_slice s i k util == trap_from s (i * k) k * (8760 / natQ k) * 1000 * util.
Proof.
  intros s i k util Hk Hl. rewrite integrate_slice_closed by exact Hk. unfold integrate_closed.
  destruct (length s - i * k)%nat as [|[|r]] eqn:Er; try lia.
  replace (Nat.min k (S r)) with k by lia. reflexivity.
Qed.
Print Assumptions C02_integral_full_year.

(* linearity in the series (all branches, including the extrapolating one) and in the utilization factor *)
Theorem C02_integral_linear : forall (s1 s2 s3 : list Q) (al be : Q) i k util, (1 <= k)%nat ->
  length s1 = length s3 -> length s2 = length s3 ->
  (forall t, nth t s3 0 == al * nth t s1 0 + be * nth t s2 0) ->
  integrate_slice s3 i k util == al * integrate_slice s1 i k util + be * integrate_slice s2 i k util.
Proof.
  intros s1 s2 s3 al be i k util Hk L1 L2 H. apply integrate_slice_lin_within; try assumption. intros t _. apply H.
Qed.
Print Assumptions C02_integral_linear.

Theorem C02_integral_utilization : forall s i k u, integrate_slice s i k u == integrate_slice s i k 1 * u.
Proof. intros s i k u. unfold integrate_slice. ring. Qed.
Print Assumptions C02_integral_utilization.

(* annual_electricity_pumping_power, every lifetime: each annual figure is the integral of its own power series *)
Theorem C02_annual_figures : forall eu life k util he pump el net hp,
  match annual_epp eu life k util he pump el net hp with
  | (hek, pk, tk, nk, hk) =>
      forall y, (y < life)%nat ->
        nth y hek 0 = integrate_slice he y k util /\
        nth y pk 0 = integrate_slice pump y k util /\
        (has_elec eu = true -> nth y tk 0 = integrate_slice el y k util /\ nth y nk 0 = integrate_slice net y k util) /\
        (has_heat eu = true -> nth y hk 0 = integrate_slice hp y k util)
  end.
Proof.
  intros eu life k util he pump el net hp. unfold annual_epp. intros y Hy. rewrite !annual_nth by exact Hy.
  split. reflexivity. split. reflexivity. split; intros ->; rewrite ?annual_nth by exact Hy; auto.
Qed.
Print Assumptions C02_annual_figures.

(* hence NetkWh = TotalkWh - PumpingkWh, year by year *)
Theorem C02_annual_net : forall eu life k util he pump el net hp,
  (1 <= k)%nat -> has_elec eu = true -> net_series el pump = Some net ->
  match annual_epp eu life k util he pump el net hp with
  | (_, pk, tk, nk, _) => forall y, (y < life)%nat -> nth y nk 0 == nth y tk 0 - nth y pk 0
  end.
Proof.
  intros eu life k util he pump el net hp Hk He Hn. apply net_series_some in Hn. destruct Hn as [L ->].
  unfold annual_epp. rewrite He. intros y Hy. rewrite !annual_nth by exact Hy. apply integrate_minus; assumption.
Qed.
Print Assumptions C02_annual_net.

(* and a series that is c x another one has c x its annual energy (HeatkWhProduced = efficiency x HeatkWhExtracted for
   direct use, COP/(COP-1) x efficiency for the heat pump, COP x efficiency for the chiller's cooling) *)
Theorem C02_annual_scaled : forall c s life k util y, (1 <= k)%nat -> (y < life)%nat ->
  nth y (annual (scale_series c s) life k util) 0 == c * nth y (annual s life k util) 0.
Proof. intros c s life k util y Hk _. apply annual_scaled, Hk. Qed.
Print Assumptions C02_annual_scaled.

(* the clause "annual figure = integral x utilization" for the figures as they stand after the economics ran:
   the add-on and S-DAC-GT economics add an offset to Total/Net/Heat kWh in place.  Refuted in general ... *)
Theorem C02_annual_is_integral_refuted :
  exists s life k util offs y, (1 <= k)%nat /\ (y < life)%nat /\ (y < length offs)%nat /\
    ~ nth y (adjust (annual s life k util) offs) 0 == integrate_slice s y k util.
Proof.
  exists [5; 4; 3; 2], 2%nat, 2%nat, (9 # 10), [1000; 1000], 0%nat. repeat split; try (cbn; lia).
  rewrite adjust_annual_nth by (cbn; lia). cbn [nth]. lra.
Qed.
Print Assumptions C02_annual_is_integral_refuted.

(* ... and true exactly where the offset is zero (no add-on energy, no S-DAC-GT consumption) *)
Theorem C02_annual_is_integral_partial : forall s life k util offs y,
  (y < life)%nat -> (y < length offs)%nat -> nth y offs 0 == 0 ->
  nth y (adjust (annual s life k util) offs) 0 == integrate_slice s y k util.
Proof. intros s life k util offs y Hy Ho Hz. rewrite adjust_annual_nth, Hz by assumption. ring. Qed.
Print Assumptions C02_annual_is_integral_partial.

(* remaining heat = initial - cumulative extracted heat (kWh x 3600 x 1e3 / 1e15), every year of every lifetime *)
Theorem C02_remaining : forall init kwh,
  length (remaining init kwh) = length kwh /\
  forall y, (y < length kwh)%nat ->
    nth y (remaining init kwh) 0 == init - sumQ (firstn (S y) kwh) * 3600 * 1000 / 1000000000000000.
Proof. exact remaining_spec. Qed.
Print Assumptions C02_remaining.

Theorem C02_remaining_step : forall init kwh y, (S y < length kwh)%nat ->
  nth (S y) (remaining init kwh) 0 == nth y (remaining init kwh) 0 - nth (S y) kwh 0 * (9 # 2500000000).
Proof. exact remaining_step. Qed.
Print Assumptions C02_remaining_step.

(* soundness of the reflective checkers that the check evaluates by vm_compute on implementation data:
   a [true] verdict means the balance holds on that data within the tolerance *)
Theorem C02_check_extracted_sound : forall tol n m cp tinj tprod he,
  check_extracted tol n m cp tinj tprod he = true ->
  length he = length tprod /\
  forall t, (t < length tprod)%nat -> approx tol (n * m * cp * (nth t tprod 0 - tinj) / 1000000) (nth t he 0).
Proof.
  intros tol n m cp tinj tprod he. exact (all_close_map (g := fun t => heat_of n m cp t tinj) (a := tprod) (b := he)).
Qed.
Print Assumptions C02_check_extracted_sound.

Theorem C02_check_net_sound : forall tol el pump net,
  check_net tol el pump net = true ->
  length pump = length el /\ length net = length el /\
  forall t, (t < length el)%nat -> approx tol (nth t el 0 - nth t pump 0) (nth t net 0).
Proof.
  intros tol el pump net. unfold check_net. destruct (net_series el pump) as [x|] eqn:E; [|discriminate].
  apply net_series_some in E. destruct E as [L ->]. intros H. destruct (all_close_map2 H) as [Ln N].
  split. symmetry; exact L. split. rewrite Ln, <- L. apply Nat.min_id.
  intros t Ht. apply N. exact Ht. rewrite <- L. exact Ht.
Qed.
Print Assumptions C02_check_net_sound.

(* on reported series: Net / FirstLawEfficiency stands for the heat towards electricity; the useful-heat series may be
   empty (electricity-only runs), its term is then 0 *)
Theorem C02_check_conservation_sound : forall tol eff he hp net fle,
  check_conservation tol eff he hp net fle = true ->
  ~ eff == 0 /\
  forall t, (t < length he)%nat -> (t < length net)%nat -> ~ nth t fle 0 == 0 ->
    approx tol (nth t net 0 / nth t fle 0 + nth t hp 0 / eff) (nth t he 0).
Proof.
  intros tol eff he hp net fle. unfold check_conservation.
  intros H. apply andb_prop in H as [H Hc]. apply andb_prop in H as [He Hh].
  apply negb_true_iff in He. apply orb_prop in Hh. rewrite Nat.eqb_eq, same_len_true in Hh.
  split. { rewrite <- Qeq_bool_iff, He. discriminate. }
  destruct (all_close_where_sound _ _ _ _ Hc) as (L1 & L2 & Hn). rewrite conservation_terms_length in L1.
  intros t Ht Htn Hf. rewrite <- (conservation_terms_nth eff net fle hp t) by lia. apply Hn. lia. exact Hf.
Qed.
Print Assumptions C02_check_conservation_sound.

Theorem C02_check_scaled_sound : forall tol c a b,
  check_scaled tol c a b = true ->
  length b = length a /\ forall t, (t < length a)%nat -> approx tol (nth t a 0 * c) (nth t b 0).
Proof. intros tol c a b. exact (all_close_map (g := fun x => x * c) (a := a) (b := b)). Qed.
Print Assumptions C02_check_scaled_sound.

Theorem C02_check_annual_sound : forall tol s life k util offs reported,
  check_annual tol s life k util offs reported = true ->
  length reported = Nat.min life (length offs) /\
  forall y, (y < life)%nat -> (y < length offs)%nat ->
    approx tol (integrate_slice s y k util + nth y offs 0) (nth y reported 0).
Proof.
  intros tol s life k util offs reported H. destruct (all_close_map2 H) as [L N]. rewrite annual_length in L, N.
  split. exact L. intros y Hy Ho. rewrite <- (annual_nth s life k util y Hy). exact (N y Hy Ho).
Qed.
Print Assumptions C02_check_annual_sound.

Theorem C02_check_annual_u_sound : forall tol s k utils offs reported,
  check_annual_u tol s k utils offs reported = true ->
  forall y, (y < length utils)%nat -> (y < length offs)%nat ->
    approx tol (integrate_slice s y k (nth y utils 0) + nth y offs 0) (nth y reported 0).
Proof.
  intros tol s k utils offs reported H. destruct (all_close_map2 H) as [_ N]. rewrite annual_u_length in N.
  intros y Hy Ho. rewrite <- (annual_u_nth s k utils y Hy). exact (N y Hy Ho).
Qed.
Print Assumptions C02_check_annual_u_sound.

Theorem C02_check_remaining_sound : forall tol init kwh rem,
  check_remaining tol init kwh rem = true ->
  length rem = length kwh /\
  forall y, (y < length kwh)%nat ->
    approx tol (init - sumQ (firstn (S y) kwh) * 3600 * 1000 / 1000000000000000) (nth y rem 0).
Proof.
  intros tol init kwh rem. destruct (remaining_spec init kwh) as [L N]. exact (all_close_spec L N).
Qed.
Print Assumptions C02_check_remaining_sound.

Theorem C02_check_dh_sound : forall tol life k fp demand geo ng utils util ann_ng maxpk,
  check_dh tol life k fp demand geo ng utils util ann_ng maxpk = true ->
  length geo = (life * 365)%nat /\ length ng = (life * 365)%nat /\
  forall pos, (pos < life * 365)%nat ->
    let i := (pos / 365)%nat in
    let j := (pos mod 365)%nat in
    let h := interp k fp (dh_time i j) in
    approx tol (nth pos geo 0 + nth pos ng 0) (nth j demand 0 / 24) /\
    nth pos geo 0 <= h + tol * Qmax 1 (Qabs h) /\ 0 <= nth pos ng 0.
Proof.
  pattern 365%nat. apply at_value. intros c Hc tol life k fp demand geo ng utils util ann_ng maxpk H.
  unfold check_dh in H. rewrite <- Hc in H. apply andb_prop in H as [H _]. apply andb_prop in H as [Hl Hd].
  apply Nat.eqb_eq in Hl.
  apply (dh_days_ok_sound c Hc) in Hd; [|rewrite Hc; apply Nat.lt_0_succ]. destruct Hd as [Hl2 Hn]. clear Hc.
  split. exact Hl. split. lia. intros pos Hp. apply (Hn pos). lia.
Qed.
Print Assumptions C02_check_dh_sound.

(* the interpolation weights (1 - f) and f sum to 1 (blending a value with itself returns it); a blend is the lower
   limit plus f times the difference; with f in [0,1] it lies between the two limits *)
Theorem C02_corr_weights : forall tf x y,
  blend tf x x == x /\ blend tf x y == x + tf * (y - x) /\
  (0 <= tf <= 1 -> Qmin x y <= blend tf x y <= Qmax x y).
Proof.
  intros tf x y. unfold blend. split. ring. split. ring. intros [H0 H1].
  destruct (Qlt_le_dec x y) as [H|H].
  - rewrite Q.min_l, Q.max_r by lra. split; nra.
  - rewrite Q.min_r, Q.max_l by lra. split; nra.
Qed.
Print Assumptions C02_corr_weights.

(* the two brackets are [5,15) and [15,25) degC; the code does not clamp the ambient temperature, so outside [5,25) the
   weight leaves [0,1) and the "blend" extrapolates *)
Theorem C02_corr_fraction_range : forall amb, 5 <= amb -> amb < 25 -> 0 <= tfraction amb /\ tfraction amb < 1.
Proof.
  intros amb H5 H25. unfold tfraction, is_low.
  destruct (Qltb_spec amb 15) as [H|H]; split; (apply Qle_shift_div_l || apply Qlt_shift_div_r); lra.
Qed.
Print Assumptions C02_corr_fraction_range.

(* continuity at the bracket boundary: at 15 degC ambient the <15 bracket and the >=15 bracket of all four plant types
   give the same utilization efficiency and the same reinjection temperature, for every entering temperature *)
Theorem C02_corr_continuous : forall p T,
  etau_bracket p true 15 T == etau_bracket p false 15 T /\ reinj_bracket p true 15 T == reinj_bracket p false 15 T.
Proof.
  intros p T. unfold etau_bracket, reinj_bracket. destruct (coeffs_adjacent p) as [-> ->]. split; apply blend_meet.
Qed.
Print Assumptions C02_corr_continuous.

Theorem C02_corr_bracket : forall p amb T,
  etau_at p amb T = etau_bracket p (is_low amb) amb T /\ reinj_at p amb T = reinj_bracket p (is_low amb) amb T.
Proof.
  intros p amb T. unfold etau_at, reinj_at, etau_bracket, reinj_bracket, tfraction.
  destruct (is_low amb); split; reflexivity.
Qed.
Print Assumptions C02_corr_bracket.

(* the injection-temperature update: never raised, never above any reinjection temperature *)
Theorem C02_tinj_update : forall tinj reinj t',
  tinj_update tinj reinj = Some t' ->
  t' <= tinj /\ (forall r, In r reinj -> t' <= r) /\ (t' == tinj \/ In t' reinj \/ exists r, In r reinj /\ t' == r).
Proof.
  intros tinj reinj t'. unfold tinj_update, list_min. destruct reinj as [|x l]; [discriminate|].
  destruct (fold_left_Qmin_spec l x) as [Hall Hin].
  destruct (Qltb_spec (fold_left Qmin l x) tinj) as [H|H]; intros [= <-].
  - split. lra. split. exact Hall. right. right. exact Hin.
  - split. lra. split. intros r Hr. specialize (Hall r Hr). lra. left. reflexivity.
Qed.
Print Assumptions C02_tinj_update.

(* the power-plant part of Calculate for the four plant types x every end-use option, every step of every series:
   electricity = availability x etau x wells x flow (x (1 - chp_fraction) in the parallel cycle) with the MODELLED etau,
   extracted heat with the updated injection temperature, the balance, and for the topping cycle useful heat and heat
   towards electricity split at the MODELLED reinjection temperature (no recourse to Net / FirstLawEfficiency) *)
Theorem C02_power_plant : forall p eu amb avail n m cp tprod tinj tchp eff chpf tinj' etau reinj o,
  power_plant p eu amb avail n m cp tprod tinj tchp eff chpf = Ok (tinj', etau, reinj, o) ->
  tinj' <= tinj /\ length (o_he o) = length tprod /\
  forall t, (t < length tprod)%nat ->
    let T := match eu with EU_BOT => tchp | _ => nth t tprod 0 end in
    nth t etau 0 = etau_at p amb T /\ nth t reinj 0 = reinj_at p amb T /\ tinj' <= reinj_at p amb T /\
    nth t (o_he o) 0 == n * m * cp * (nth t tprod 0 - tinj') / 1000000 /\
    match eu with
    | EU_ELEC => arr_at (o_hete o) t == nth t (o_he o) 0
    | EU_HEAT => True
    | _ => ~ eff == 0 -> arr_at (o_hete o) t + nth t (o_hp o) 0 / eff == nth t (o_he o) 0
    end /\
    ((t < length avail)%nat ->
     nth t (o_el o) 0 == nth t avail 0 * etau_at p amb T * n * m * match eu with EU_PAR => 1 - chpf | _ => 1 end) /\
    (eu = EU_TOP ->
     nth t (o_hp o) 0 == eff * (n * m * cp * (reinj_at p amb (nth t tprod 0) - tinj') / 1000000) /\
     arr_at (o_hete o) t == n * m * cp * (nth t tprod 0 - reinj_at p amb (nth t tprod 0)) / 1000000).
Proof.
  intros p eu amb avail n m cp tprod tinj tchp eff chpf tinj' etau reinj o E.
  destruct (power_plant_ok E) as (-> & -> & Eu & Ee).
  destruct (C02_tinj_update _ _ _ Eu) as (Hle & Hall & _). destruct (ehp_steps Ee) as (Hhe & Hel & Hbr).
  split. exact Hle. split. rewrite Hhe. apply heat_extracted_length.
  intros t Ht. destruct (corr_series_nth p eu amb tchp tprod t Ht) as (He & Hr & Hin). cbn zeta.
  split. exact He. split. exact Hr. split. apply Hall, Hin.
  split. rewrite Hhe. apply heat_extracted_nth, Ht. split. exact (ehp_conserved Ee t Ht).
  split. intros Ha. rewrite <- He. apply Hel, Ha.
  intros ->. destruct (Hbr t Ht) as (_ & Hhp & Hte). rewrite Hr in Hhp, Hte. exact (conj Hhp Hte).
Qed.
Print Assumptions C02_power_plant.

Theorem C02_topping_heat_nonneg : forall p amb avail n m cp tprod tinj tchp eff chpf tinj' etau reinj o t,
  power_plant p EU_TOP amb avail n m cp tprod tinj tchp eff chpf = Ok (tinj', etau, reinj, o) ->
  0 <= eff -> 0 <= n -> 0 <= m -> 0 <= cp -> (t < length tprod)%nat -> 0 <= nth t (o_hp o) 0.
Proof.
  intros p amb avail n m cp tprod tinj tchp eff chpf tinj' etau reinj o t E He Hn Hm Hc Ht.
  destruct (C02_power_plant _ _ _ _ _ _ _ _ _ _ _ _ _ _ _ _ E) as (_ & _ & H).
  destruct (H t Ht) as (_ & _ & Hle & _ & _ & _ & Htop). destruct (Htop eq_refl) as [-> _]. cbn zeta in Hle.
  assert (0 <= n * m * cp) by (apply Qmult_le_0_compat; [apply Qmult_le_0_compat|]; assumption).
  apply Qmult_le_0_compat. exact He. apply Qle_shift_div_l. reflexivity. rewrite Qmult_0_l.
  apply Qmult_le_0_compat. assumption. lra.
Qed.
Print Assumptions C02_topping_heat_nonneg.

Theorem C02_check_power_plant_sound : forall tol p eu amb avail n m cp tprod tinj tchp eff chpf tpp el he hp,
  check_power_plant tol p eu amb avail n m cp tprod tinj tchp eff chpf tpp el he hp = true ->
  exists tinj' etau reinj o,
    power_plant p eu amb avail n m cp tprod tinj tchp eff chpf = Ok (tinj', etau, reinj, o) /\
    approx tol tinj' tinj /\
    length el = length (o_el o) /\ length he = length (o_he o) /\ length hp = length (o_hp o) /\
    (forall t, (t < length (o_el o))%nat -> approx tol (nth t (o_el o) 0) (nth t el 0)) /\
    (forall t, (t < length (o_he o))%nat -> approx tol (nth t (o_he o) 0) (nth t he 0)) /\
    (forall t, (t < length (o_hp o))%nat -> approx tol (nth t (o_hp o) 0) (nth t hp 0)).
Proof.
  intros tol p eu amb avail n m cp tprod tinj tchp eff chpf tpp el he hp H. unfold check_power_plant in H.
  apply andb_prop in H as [_ H].
  destruct (power_plant p eu amb avail n m cp tprod tinj tchp eff chpf) as [[[[t1 e1] r1] o1]|c]; [|discriminate].
  apply andb_prop in H as [H H4]. apply andb_prop in H as [H H3]. apply andb_prop in H as [H1 H2].
  apply close_iff in H1. apply all_close_sound in H2, H3, H4. destruct H2, H3, H4.
  exists t1, e1, r1, o1. split. reflexivity. split. exact H1. repeat split; assumption.
Qed.
Print Assumptions C02_check_power_plant_sound.

Theorem C02_check_fle_sound : forall tol p eu amb avail n m cp tprod tinj tchp eff chpf net fle,
  check_fle tol p eu amb avail n m cp tprod tinj tchp eff chpf net fle = true ->
  exists tinj' etau reinj o,
    power_plant p eu amb avail n m cp tprod tinj tchp eff chpf = Ok (tinj', etau, reinj, o) /\
    length fle = length net /\
    forall t, (t < length net)%nat -> ~ arr_at (o_hete o) t == 0 ->
      approx tol (nth t fle 0 * arr_at (o_hete o) t) (nth t net 0).
Proof.
  intros tol p eu amb avail n m cp tprod tinj tchp eff chpf net fle H. unfold check_fle in H.
  destruct (power_plant p eu amb avail n m cp tprod tinj tchp eff chpf) as [[[[t1 e1] r1] o1]|c]; [|discriminate].
  exists t1, e1, r1, o1. split. reflexivity. exact (fle_ok_sound _ _ _ _ _ H).
Qed.
Print Assumptions C02_check_fle_sound.

(* SurfacePlantSUTRA (reservoir thermal energy storage), every step, for a positive time step: injected + produced =
   simulated heat (as power), total = produced + auxiliary, signs, the total supply meets the target, and equals
   max(simulated, target) when the store delivers.  C02_sutra_plant gives only s_dt <> 0 for the plant's own time step:
   the sign clauses need a positive last time entry on top of it *)
Theorem C02_sutra_step : forall dt target sim, 0 < dt ->
  sutra_injected dt sim + sutra_produced dt sim == sim / dt / 1000 /\
  sutra_total dt target sim == sutra_produced dt sim + sutra_aux dt target sim /\
  sutra_injected dt sim <= 0 /\ 0 <= sutra_produced dt sim /\ 0 <= sutra_aux dt target sim /\
  target / dt / 1000 <= sutra_total dt target sim /\
  (0 <= sim -> sutra_total dt target sim == Qmax sim target / dt / 1000).
Proof.
  (* x / dt / 1000 is x * u * (1 # 1000) with u = / dt > 0: sign facts about products *)
  intros dt target sim Hd. apply Qinv_lt_0_compat in Hd.
  unfold sutra_total, sutra_injected, sutra_produced, sutra_aux, Qdiv. set (u := / dt) in *. change (/ 1000) with (1 # 1000).
  split. { destruct (Qltb_spec 0 sim), (Qltb_spec sim 0); nra. }
  split. reflexivity.
  split. { destruct (Qltb_spec 0 sim); nra. }
  split. { destruct (Qltb_spec sim 0); nra. }
  split. { destruct (Qltb_spec (target - sim) 0); nra. }
  split. { destruct (Qltb_spec sim 0), (Qltb_spec (target - sim) 0); nra. }
  intros Hs. destruct (Qltb_spec sim 0), (Qltb_spec (target - sim) 0); rewrite ?Q.max_l, ?Q.max_r by lra; nra.
Qed.
Print Assumptions C02_sutra_step.

(* the whole plant, for every profile length and number of years: the series are the per-step functions of every second
   profile entry (plus the last), annual total = annual produced + annual auxiliary, annual produced energy = the sum
   of max(simulated heat, 0) over the year's 730 steps / 1e6 (the time step cancels), pumping energy = sum x time step *)
Theorem C02_sutra_plant : forall time target sim pump o,
  sutra_plant time target sim pump = Ok o ->
  exists tv tg sm,
    subsample time = Some tv /\ subsample target = Some tg /\ subsample sim = Some sm /\ length tg = length sm /\
    s_dt o = sutra_dt tv /\ ~ s_dt o == 0 /\
    s_inj o = map (sutra_injected (s_dt o)) sm /\ s_prod o = map (sutra_produced (s_dt o)) sm /\
    s_aux o = map2 (sutra_aux (s_dt o)) tg sm /\ s_tot o = map2 (sutra_total (s_dt o)) tg sm /\
    length (s_ann_tot o) = Z.to_nat (py_round (last tv 0 / 8766)) /\
    forall i, (i < length (s_ann_tot o))%nat ->
      nth i (s_ann_tot o) 0 == nth i (s_ann_prod o) 0 + nth i (s_ann_aux o) 0 /\
      nth i (s_ann_prod o) 0 == sumQ (map (fun s => if Qltb s 0 then 0 else s) (sutra_block sm i)) / 1000000 /\
      nth i (s_pumpkwh o) 0 == sumQ (sutra_block pump i) * s_dt o.
Proof. exact sutra_plant_spec. Qed.
Print Assumptions C02_sutra_plant.

(* "every second entry": entry t of [every_other l] is entry 2t of l ([subsample] is [every_other] of all but the last
   entry, followed by the last entry) *)
Theorem C02_sutra_stride : forall t l, nth t (every_other l) 0 = nth (2 * t) l 0.
Proof.
  induction t as [|t IH]; intros [|x [|y r]]; cbn [every_other]; try reflexivity.
  - cbn. destruct t; reflexivity.
  - replace (2 * S t)%nat with (S (S (2 * t))) by lia. cbn [nth]. apply IH.
Qed.
Print Assumptions C02_sutra_stride.

Theorem C02_check_sutra_points_sound : forall tol dt raw_target raw_sim inj prod aux tot,
  check_sutra_points tol dt raw_target raw_sim inj prod aux tot = true ->
  length inj = length (every_other raw_sim) /\
  forall t, (t < length (every_other raw_sim))%nat ->
    let sim := nth (2 * t) raw_sim 0 in
    let target := nth (2 * t) raw_target 0 in
    approx tol (sutra_injected dt sim) (nth t inj 0) /\ approx tol (sutra_produced dt sim) (nth t prod 0) /\
    approx tol (sutra_aux dt target sim) (nth t aux 0) /\ approx tol (sutra_total dt target sim) (nth t tot 0).
Proof.
  intros tol dt raw_target raw_sim inj prod aux tot. unfold check_sutra_points.
  intros H. apply andb_prop in H as [H H5]. apply andb_prop in H as [H H4]. apply andb_prop in H as [H H3].
  apply andb_prop in H as [L H2]. apply same_len_true in L.
  destruct (all_close_map H2) as [L2 N2], (all_close_map H3) as [_ N3], (all_close_map2 H4) as [_ N4],
    (all_close_map2 H5) as [_ N5].
  split. exact L2. intros t Ht. cbn zeta. rewrite <- !C02_sutra_stride.
  assert (Ht' : (t < length (every_other raw_target))%nat) by (rewrite L; exact Ht).
  exact (conj (N2 t Ht) (conj (N3 t Ht) (conj (N4 t Ht' Ht) (N5 t Ht' Ht)))).
Qed.
Print Assumptions C02_check_sutra_points_sound.

Theorem C02_check_sutra_year_sound : forall tol dt inj prod aux tot pump annual,
  check_sutra_year tol dt inj prod aux tot pump annual = true ->
  length inj = 730%nat /\
  approx tol (sumQ (firstn 730 inj) * dt / 1000) (nth 0 annual 0) /\
  approx tol (sumQ (firstn 730 prod) * dt / 1000) (nth 1 annual 0) /\
  approx tol (sumQ (firstn 730 aux) * dt / 1000) (nth 2 annual 0) /\
  approx tol (sumQ (firstn 730 tot) * dt / 1000) (nth 3 annual 0) /\
  approx tol (sumQ (firstn 730 pump) * dt) (nth 4 annual 0).
Proof.
  pattern 730%nat. apply at_value. intros c Hc tol dt inj prod aux tot pump annual H.
  unfold check_sutra_year in H. rewrite <- Hc in H. apply andb_prop in H as [Hl H]. apply Nat.eqb_eq in Hl.
  split. exact Hl. pose proof (sutra_block_0 c Hc) as B. clear Hc Hl.
  (* the comparison of the five-element list, read entry by entry *)
  apply all_close_sound in H. destruct H as [_ N]. cbn [length] in N.
  pose proof (N 0%nat ltac:(lia)) as N0. cbn [nth] in N0. rewrite sutra_annual_eq, B in N0.
  pose proof (N 1%nat ltac:(lia)) as N1. cbn [nth] in N1. rewrite sutra_annual_eq, B in N1.
  pose proof (N 2%nat ltac:(lia)) as N2. cbn [nth] in N2. rewrite sutra_annual_eq, B in N2.
  pose proof (N 3%nat ltac:(lia)) as N3. cbn [nth] in N3. rewrite sutra_annual_eq, B in N3.
  pose proof (N 4%nat ltac:(lia)) as N4. cbn [nth] in N4. rewrite sutra_pumping_eq, B in N4.
  exact (conj N0 (conj N1 (conj N2 (conj N3 N4)))).
Qed.
Print Assumptions C02_check_sutra_year_sound.

(* every end-use option that exists in the current source (table regenerated on each run) has a branch in the model *)
Theorem C02_enduse_table_covered : forall c, In c enduse_codes -> exists eu, enduse_of_code c = Some eu.
Proof. exact (covers_enduse_sound enduse_codes eq_refl). Qed.
Print Assumptions C02_enduse_table_covered.

(* non-vacuity: the hypotheses above are satisfiable, on concrete data *)
Example C02_ex_conservation :
  exists o, ehp EU_TOP [1#10; 1#10] [1#5; 1#5] 2 50 4000 [200; 190] 60 [80; 75] 120 (9#10) (1#2) = Ok o /\
            arr_at (o_hete o) 1 + nth 1 (o_hp o) 0 / (9#10) == nth 1 (o_he o) 0 /\ nth 1 (o_he o) 0 == 52.
Proof. apply ok_exists. vm_compute. split; reflexivity. Qed.

Example C02_ex_error : ehp EU_ELEC [-1#10] [1#5] 2 50 4000 [200] 60 [] 120 (9#10) (1#2) = Fail E_RUNTIME.
Proof. vm_compute. reflexivity. Qed.

Example C02_ex_net : exists net, net_series [5; 6] [1; 2] = Some net /\ nth 1 net 0 == 4.
Proof. eexists. split. vm_compute. reflexivity. vm_compute. reflexivity. Qed.

Example C02_ex_integral :
  integrate_slice [5; 4; 3; 2] 0 2 (9#10) == 31536000 /\       (* full year: (4.5 + 3.5) x 4380 x 1000 x 0.9 *)
  integrate_slice [5; 4; 3; 2] 1 2 (9#10) == 19710000 /\       (* last year, one trapezoid rescaled *)
  integrate_slice [5; 4; 3] 2 1 1 == 21900000 /\               (* single sample, extrapolated 3 -> 2 *)
  integrate_slice [5; 4] 1 1 1 == 35040000.                    (* single sample at index 1: not extrapolated *)
Proof. repeat split; vm_compute; reflexivity. Qed.

Example C02_ex_annual_net :
  match annual_epp EU_PAR 2 2 (9#10) [50; 49; 48; 47] [1; 1; 2; 2] [5; 4; 3; 2] [4; 3; 1; 0] [9; 9; 8; 8] with
  | (_, pk, tk, nk, _) => nth 1 nk 0 == nth 1 tk 0 - nth 1 pk 0 /\ ~ nth 1 pk 0 == 0
  end.
Proof. vm_compute. split. reflexivity. discriminate. Qed.

Example C02_ex_remaining : nth 1 (remaining 300 [500000000; 400000000]) 0 == 300 - (324 # 100).
Proof. vm_compute. reflexivity. Qed.

Example C02_ex_dh :
  exists o, dh_run 1 2 [10; 8] (repeat 216 365) = Ok o /\
            nth 0 (d_geo o) 0 == 9 /\ nth 0 (d_ng o) 0 == 0 /\        (* demand 9 MW < 10 MW well output *)
            nth 364 (d_geo o) 0 == 8 /\ nth 364 (d_ng o) 0 == 1.       (* well output has dropped to 8 MW *)
Proof. apply ok_exists. vm_compute. repeat split; reflexivity. Qed.

Example C02_ex_checkers :
  check_extracted (1 # 1000000000) 2 50 4000 60 [200; 190] [56; 52] = true /\
  check_extracted (1 # 1000000000) 2 50 4000 60 [200; 190] [56; 53] = false /\
  check_net (1 # 1000000000) [5; 6] [1; 2] [4; 4] = true /\
  check_conservation (1 # 1000000000) (9#10) [56; 52] [9; 9] [4; 4] [4 # 46; 4 # 42] = true /\
  check_annual (1 # 1000000000) [5; 4; 3; 2] 2 2 (9#10) [0; 0] [31536000; 19710000] = true /\
  check_annual (1 # 1000000000) [5; 4; 3; 2] 2 2 (9#10) [0; 0] [31536000; 19710001] = false /\
  check_remaining (1 # 1000000000) 300 [500000000; 400000000] [2982 # 10; 29676 # 100] = true.
Proof. repeat split; vm_compute; reflexivity. Qed.

(* subcritical ORC at 15 degC ambient, 150 degC entering: etau = 2.713e-3 x 150 - 9.1841e-2, ReinjTemp = 0.0894 x 150 + 62.6;
   the user's 80 degC injection temperature is lowered to the reinjection temperature 76.01 *)
Example C02_ex_power_plant :
  exists tinj' etau reinj o,
    power_plant P_SUBORC EU_TOP 15 [1 # 10] 2 50 4000 [150] 80 120 (9 # 10) (1 # 2) = Ok (tinj', etau, reinj, o) /\
    nth 0 etau 0 == 315109 # 1000000 /\ nth 0 reinj 0 == 7601 # 100 /\ tinj' == 7601 # 100 /\
    nth 0 (o_el o) 0 == (1 # 10) * (315109 # 1000000) * 100 /\ nth 0 (o_hp o) 0 == 0.
Proof. apply ok_exists4. vm_compute. repeat split; reflexivity. Qed.

Example C02_ex_corr_blend : etau_at P_SFLASH 10 200 == (etau_bracket P_SFLASH true 5 200 + etau_bracket P_SFLASH true 15 200) / 2.
Proof.
  destruct (C02_corr_bracket P_SFLASH 10 200) as [-> _]. change (is_low 10) with true.
  unfold etau_bracket, blend.
  generalize (poly2 (eta_ll (coeffs P_SFLASH true)) 200) (poly2 (eta_ul (coeffs P_SFLASH true)) 200). intros x y. field.
Qed.

(* SUTRA: 5 profile entries (0, half a year twice, a year twice) -> 3 steps, 1 year; the store is charged (-50), then
   delivers 30 of a 40 target (10 auxiliary), then 45 of 40 *)
Example C02_ex_sutra :
  exists o, sutra_plant [0; 4383; 4383; 8766; 8766] [-50; -50; 40; 40; 40] [-50; -50; 30; 30; 45] [1; 1; 1] = Ok o /\
            s_dt o == 2922 /\ nth 0 (s_inj o) 0 == - 50 / 2922 / 1000 /\ nth 1 (s_prod o) 0 == 30 / 2922 / 1000 /\
            nth 1 (s_aux o) 0 == 10 / 2922 / 1000 /\ nth 2 (s_aux o) 0 == 0 /\ nth 2 (s_tot o) 0 == 45 / 2922 / 1000 /\
            nth 0 (s_ann_prod o) 0 == 75 / 1000000 /\ nth 0 (s_ann_tot o) 0 == 85 / 1000000.
Proof. apply ok_exists. vm_compute. repeat split; reflexivity. Qed.

Example C02_ex_round : py_round (5 # 2) = 2%Z /\ py_round (7 # 2) = 4%Z /\ py_round (262968 # 8766) = 30%Z.
Proof. repeat split; vm_compute; reflexivity. Qed.

Example C02_ex_fle :
  check_fle (1 # 1000000000) P_SUBORC EU_ELEC 15 [1 # 10] 2 50 4000 [150] 70 120 (9 # 10) (1 # 2) [3] [3 # 32] = true.
Proof. vm_compute. reflexivity. Qed.
