(* Props/C03.v - Capital and O&M totals are the sum of their parts.  Most clauses are one unfolding of a definition of
   Model/Costs.v deep and are proved here; the others are in Proofs/CostsProofs.v. *)
From Coq Require Import QArith List ZArith Bool Lqa.
From Verif Require Import Base.Flat Model.Costs Proofs.FlatFacts Proofs.CostsProofs.
Import ListNotations.
Open Scope Q_scope.

Theorem C03_ccap_sum : forall k : cost_in, k_total_valid k = false ->
  ccap k == cexpl k + cwell k + cstim k + cgath k + cplant k + cpiping k + k_dh k
            - ritc_value k + k_flat k - k_other k - k_grant k.
Proof. intros k H. unfold ccap, ccap_pre. rewrite H. reflexivity. Qed.
Print Assumptions C03_ccap_sum.

Theorem C03_total_override : forall k : cost_in, k_total_valid k = true ->
  ccap k == k_total_fixed k - ritc_value k + k_flat k - k_other k - k_grant k /\ ccap_pre k = k_total_fixed k.
Proof. intros k H. unfold ccap, ccap_pre. rewrite H. split; reflexivity. Qed.
Print Assumptions C03_total_override.

Theorem C03_itc : forall k : cost_in,
  (k_ritc_provided k = true -> ritc_value k == k_ritc k * ccap_pre k /\
                               ccap k == (1 - k_ritc k) * ccap_pre k + k_flat k - k_other k - k_grant k) /\
  (k_ritc_provided k = false -> ritc_value k == 0 /\ ccap k == ccap_pre k + k_flat k - k_other k - k_grant k).
Proof. exact itc_exact. Qed.
Print Assumptions C03_itc.

Theorem C03_override_exact : forall k : cost_in,
  (k_stim_valid k = true -> cstim k = k_stim_fixed k) /\
  (k_gath_valid k = true -> cgath k = k_gath_fixed k) /\
  (k_plant_valid k = true -> cplant k = k_plant_fixed k) /\
  (k_expl_valid k = true -> cexpl k = k_expl_fixed k) /\
  (k_ppwc_valid k = true -> c1p k = k_ppwc k /\ c1i k = (if k_piwc_provided k then k_piwc k else k_ppwc k)) /\
  (k_oamplant_valid k = true -> coamplant k = k_oamplant_fixed k) /\
  (k_oamwell_valid k = true -> coamwell k = k_oamwell_fixed k) /\
  (k_oamwater_valid k = true -> coamwater k = k_oamwater_fixed k) /\
  (k_oam_total_valid k = true -> coam_pre k = k_oam_total k).
Proof.
  intros k. unfold cstim, cgath, cplant, cexpl, c1p, c1i, coamplant, coamwell, coamwater, coam_pre.
  repeat apply conj; intros ->; try split; reflexivity.
Qed.
Print Assumptions C03_override_exact.

Theorem C03_wellfield : forall k : cost_in,
  (k_ppwc_valid k = false -> k_sbt k = false ->
     cwell k == (105 # 100) * (k_c1p_corr k * k_nprod k + k_c1i_corr k * k_ninj k + k_lateral k)) /\
  (k_ppwc_valid k = false -> k_sbt k = true ->
     cwell k == k_c1p_corr k * k_nprod k + k_c1i_corr k * k_ninj k + k_lateral k + k_junction k) /\
  (k_ppwc_valid k = true ->
     cwell k == k_ppwc k * k_nprod k + (if k_piwc_provided k then k_piwc k else k_ppwc k) * k_ninj k).
Proof. exact wellfield. Qed.
Print Assumptions C03_wellfield.

Theorem C03_coam_sum : forall k : cost_in, k_oam_total_valid k = false ->
  coam k == coamwell k + coamplant k + coamwater k + chilleropex k + k_dh_oam k
            + redrill_amortised k + k_annual_fee k - k_taxrelief k.
Proof. intros k H. unfold coam, coam_pre. rewrite H. reflexivity. Qed.
Print Assumptions C03_coam_sum.

Theorem C03_coam_total_override : forall k : cost_in, k_oam_total_valid k = true ->
  coam k == k_oam_total k + redrill_amortised k + k_annual_fee k - k_taxrelief k.
Proof. intros k H. unfold coam, coam_pre. rewrite H. reflexivity. Qed.
Print Assumptions C03_coam_total_override.

Theorem C03_redrill : forall k : cost_in,
  (0 < k_redrill k -> redrill_amortised k == (cwell k + cstim k) * k_redrill k / k_life k) /\
  (k_redrill k <= 0 -> redrill_amortised k == 0).
Proof.
  intros k. unfold redrill_amortised. destruct (Qltb_spec 0 (k_redrill k)); split; intros; try reflexivity; lra.
Qed.
Print Assumptions C03_redrill.

Theorem C03_chiller_counted_once : forall k : cost_in, k_is_chiller k = true -> k_oamplant_valid k = false ->
  coamplant k == k_oamplant_adj k * ((15 # 1000) * (cplant k - k_chillercapex k) + (75 # 100) * k_labor k) /\
  chilleropex k = (if k_chilleropex_provided k then k_chilleropex_in k else k_chillercapex k * 2 / 100).
Proof. intros k Hc Hv. unfold coamplant, chilleropex. rewrite Hc, Hv. split; reflexivity. Qed.
Print Assumptions C03_chiller_counted_once.

Theorem C03_drilled_length : forall cfg nsec nv ind outd np ni,
  match drilling_lengths cfg nsec nv ind outd np ni with
  | [tot; vert; lat; junction] => tot == vert + lat /\ junction == 0 /\
      (cfg <> CfgULoop -> vert == (np + ni) * ind * 1000) /\
      (cfg = CfgULoop -> vert == np * ind * 1000 + ni * outd * 1000) /\
      (cfg = CfgVertical -> lat == 0) /\ (cfg <> CfgVertical -> lat == nsec * nv * 1000)
  | _ => False
  end.
Proof.
  intros cfg nsec nv ind outd np ni. destruct cfg; simpl; repeat apply conj; intros.
  (* per configuration: the total is vertical + lateral + 0; the clauses for the other configurations have a false premise;
     the rest hold as written *)
  all: try congruence. all: try reflexivity. all: apply Qplus_0_r.
Qed.
Print Assumptions C03_drilled_length.

Theorem C03_per_well_cost : forall (simple : bool) (coef : Q * Q * Q) (d per_m adj : Q),
  (simple = false -> 500 <= d -> one_vertical_well simple coef d per_m adj == adj * quad_cost coef d) /\
  (simple = true \/ d < 500 -> one_vertical_well simple coef d per_m adj == adj * (per_m * d / 1000000)).
Proof.
  intros. unfold one_vertical_well. split.
  - intros -> Hd. destruct (Qltb_spec d 500); [lra | reflexivity].
  - intros [-> | Hd]; [reflexivity|]. apply Qltb_true in Hd. rewrite Hd, orb_true_r. reflexivity.
Qed.
Print Assumptions C03_per_well_cost.

(* non-vertical sections: none for a vertical configuration; uncased sections cost exactly half of cased ones in every pricing
   branch; priced per metre (independent of the number of sections) when a per-metre figure is given, the SIMPLE correlation is
   chosen or a section is shorter than 500 m, and by the correlation per section otherwise *)
Theorem C03_lateral_cost : forall (pm simple cased : bool) (coef : Q * Q * Q) (nsec len per_m adj : Q),
  lateral_cost true pm simple cased coef nsec len per_m adj = 0 /\
  (forall v, lateral_cost v pm simple false coef nsec len per_m adj == (1 # 2) * lateral_cost v pm simple true coef nsec len per_m adj) /\
  (~ nsec == 0 -> pm = true \/ simple = true \/ len / nsec < 500 ->
     lateral_cost false pm simple cased coef nsec len per_m adj == adj * ((if cased then 1 else 1 # 2) * (per_m * len) / 1000000)) /\
  (500 <= len / nsec ->
     lateral_cost false false false cased coef nsec len per_m adj == adj * ((if cased then 1 else 1 # 2) * nsec * quad_cost coef (len / nsec))).
Proof.
  intros. split; [reflexivity|]. split; [intros; apply lateral_uncased_half|].
  split; [apply lateral_per_metre | apply lateral_by_correlation].
Qed.
Print Assumptions C03_lateral_cost.

(* district-heating network: a supplied total is used verbatim, otherwise rate x length / 1000 with the documented
   precedence of piping length, 75 % of road length, population density *)
Theorem C03_district_network : forall d : dh_in,
  (d_total_provided d = true -> dh_network_cost d = d_total d) /\
  (d_total_provided d = false -> d_piping_provided d = true -> dh_network_cost d == d_rate d * d_piping_len d / 1000) /\
  (d_total_provided d = false -> d_piping_provided d = false -> d_road_provided d = true ->
     dh_network_cost d == d_rate d * ((75 # 100) * d_road_len d) / 1000) /\
  (d_total_provided d = false -> d_piping_provided d = false -> d_road_provided d = false ->
     dh_network_cost d == d_rate d * dh_length_from_density d / 1000).
Proof.
  intros d. unfold dh_network_cost, Qdiv. repeat apply conj; repeat intros ->; try reflexivity; ring.
Qed.
Print Assumptions C03_district_network.

Theorem C03_district_length_bounds : forall d : dh_in, 0 <= d_area d -> 0 <= dh_density d ->
  d_area d <= dh_length_from_density d /\ dh_length_from_density d <= (75 # 10) * d_area d.
Proof.
  intros d Ha _. now apply dh_length_bounds.
Qed.
Print Assumptions C03_district_length_bounds.

(* surface plant including end-use equipment: a valid user figure is used verbatim; otherwise the $250/kWth direct-use cost
   (x adjustment factor x 1.12 x 1.15) plus the end-use equipment (chiller, heat pump, peaking boiler), or - with a power
   plant - the correlation x adjustment factor x 1.12 x 1.15 x 1.02 x 1.10 plus the direct-use part of a cogeneration plant *)
Theorem C03_plant_cost : forall p : plant_in,
  (p_fixed_valid p = true -> plant_cost p = p_fixed p) /\
  (p_fixed_valid p = false -> p_kind p <> PPower ->
     plant_cost p == q112 * q115 * p_adj p * (250 # 1000000) * p_max_he p * 1000 + equipment_cost p) /\
  (p_fixed_valid p = false -> p_kind p = PPower ->
     plant_cost p == q112 * q115 * p_adj p * p_corr p * (102 # 100) * (110 # 100)
                     + (if p_cogen p then q112 * q115 * p_adj p * (250 # 1000000) * p_max_hp_over_eff p * 1000 else 0)).
Proof.
  intros p. unfold plant_cost, capex_elec_plant, capex_heat_plant, direct_use_cost, q1288. repeat apply conj.
  - intros ->. reflexivity.
  - intros -> Hk. destruct (p_kind p); try congruence; reflexivity.
  - intros -> ->. reflexivity.
Qed.
Print Assumptions C03_plant_cost.

Theorem C03_plant_split : forall p : plant_in, p_kind p = PPower ->
  capex_elec_plant p + capex_heat_plant p == plant_cost p /\
  (p_fixed_valid p = false -> p_ratio_provided p = false -> ~ plant_cost p == 0 ->
     plant_ratio p * plant_cost p == capex_elec_plant p).
Proof.
  intros p Hk. split.
  - unfold plant_cost, capex_elec_plant, capex_heat_plant. rewrite Hk. destruct (p_fixed_valid p); ring.
  - intros Hf Hr Hnz. unfold plant_ratio. rewrite Hf, Hr. cbn [orb]. rewrite Qmult_comm. now apply Qmult_div_r.
Qed.
Print Assumptions C03_plant_split.

Theorem C03_equipment_verbatim : forall p : plant_in,
  p_eq_provided p = true -> (p_kind p = PChiller \/ p_kind p = PHeatPump) -> equipment_cost p = p_eq_in p.
Proof. intros p H [Hk | Hk]; unfold equipment_cost; rewrite Hk, H; reflexivity. Qed.
Print Assumptions C03_equipment_verbatim.

(* non-vacuity: a run with ITC, grant and redrilling *)
Definition exk : cost_in :=
  {| k_ppwc_valid := false; k_ppwc := 0; k_piwc_provided := false; k_piwc := 0; k_nprod := 2; k_ninj := 1;
     k_c1p_corr := 4; k_c1i_corr := 5; k_lateral := 0; k_sbt := false; k_junction := 0;
     k_stim_valid := true; k_stim_fixed := 3; k_stim_adj := 1; k_gath_valid := false; k_gath_fixed := 0; k_gath_adj := 1;
     k_cpumps := 100000; k_plant_valid := false; k_plant_fixed := 0; k_plant_corr := 40;
     k_expl_valid := false; k_expl_fixed := 0; k_expl_adj := 1; k_piping_len := 2; k_dh := 0;
     k_total_valid := false; k_total_fixed := 0; k_ritc_provided := true; k_ritc := 3#10; k_flat := 1; k_other := 0; k_grant := 2;
     k_oam_total_valid := false; k_oam_total := 0; k_oamplant_valid := false; k_oamplant_fixed := 0; k_oamplant_adj := 1;
     k_labor := 1; k_oamwell_valid := false; k_oamwell_fixed := 0; k_oamwell_adj := 1; k_oamwater_valid := true;
     k_oamwater_fixed := 1#10; k_oamwater_adj := 1; k_flow := 50; k_waterloss := 0; k_util := 9#10;
     k_is_chiller := false; k_chillercapex := 0; k_chilleropex_provided := false; k_chilleropex_in := 0; k_dh_oam := 0;
     k_redrill := 2; k_life := 30; k_annual_fee := 0; k_taxrelief := 1#10 |}.
Example exk_hyps : k_total_valid exk = false /\ k_ritc_provided exk = true /\ 0 < k_redrill exk /\ 0 < ccap exk /\ 0 < coam exk.
Proof. repeat apply conj; vm_compute; reflexivity. Qed.
Definition exp : plant_in :=
  {| p_kind := PPower; p_cogen := true; p_fixed_valid := false; p_fixed := 0; p_adj := 3#2; p_max_he := 40;
     p_eq_provided := false; p_eq_in := 0; p_max_eq := 0; p_max_peaking := 0; p_corr := 20; p_max_hp_over_eff := 12;
     p_ratio_provided := false; p_ratio_in := 0 |}.
Example exp_hyps : p_kind exp = PPower /\ 0 < plant_cost exp /\ 0 < plant_ratio exp /\ plant_ratio exp < 1.
Proof. repeat apply conj; vm_compute; reflexivity. Qed.
