(* Props/C04.v - Cash flow, NPV, IRR, VIR, MOIC and payback are mutually consistent.
   The statements; the supporting lemmas are in Proofs/CashFlowProofs.v and Proofs/IrrProofs.v. *)
From Coq Require Import QArith Qabs Qfield List ZArith Bool Lia Lqa.
From Verif Require Import Base.Flat Model.CashFlow Proofs.CashFlowProofs Proofs.ScalingProofs Proofs.IrrProofs.
Import ListNotations.
Open Scope Q_scope.

(* every construction year carries minus an equal share of total capital cost *)
Theorem C04_cashflow_construction : forall (c : cf_in) (t : nat), (t < ci_cy c)%nat ->
  nth t (total_cashflow c) 0 = - (1) * (ci_ccap c / natQ (ci_cy c)).
Proof.
  intros c t H. unfold total_cashflow. rewrite app_nth1 by now rewrite repeat_length. now apply nth_repeat_lt.
Qed.
Print Assumptions C04_cashflow_construction.

(* every operating year: sum over the products sold of energy*price/1e6, plus carbon revenue when enabled, minus O&M;
   for every lifetime, every number of construction years, every product mix *)
Theorem C04_cashflow_operating : forall (c : cf_in) (life j : nat), wf c life -> (j < life)%nat ->
  nth (ci_cy c + j) (total_cashflow c) 0 ==
    product_revenue_spec c j + carbon_revenue_spec c j - ci_coam c.
Proof. intros c life j Hwf Hj. rewrite cashflow_operating_year. now apply total_ops_nth with (life := life). Qed.
Print Assumptions C04_cashflow_operating.

Theorem C04_cashflow_length : forall (c : cf_in) (life : nat), wf c life ->
  length (total_cashflow c) = (ci_cy c + life)%nat.
Proof.
  intros c life H. unfold total_cashflow. now rewrite app_length, repeat_length, (total_ops_length c life H).
Qed.
Print Assumptions C04_cashflow_length.

(* the cumulative series is the running sum of the yearly series *)
Theorem C04_cumulative : forall (cf : list Q) (i : nat), (i < length cf)%nat ->
  nth i (running cf) 0 == sumQ (firstn (S i) cf).
Proof. intros cf i H. unfold running. rewrite running_from_nth by assumption. ring. Qed.
Print Assumptions C04_cumulative.

Theorem C04_cumulative_step : forall (cf : list Q) (i : nat), (S i < length cf)%nat ->
  nth (S i) (running cf) 0 == nth i (running cf) 0 + nth (S i) cf 0.
Proof. intros cf i H. now apply running_from_step. Qed.
Print Assumptions C04_cumulative_step.

(* a positive payback period lies within a year in which cumulative cash flow turns from non-positive to positive
   (first cumulative entry non-positive, i.e. CCap >= 0; without that premise Python's cum[-1] wrap-around at
   i = 0 is the only other possibility, see payback_bracket) *)
Theorem C04_payback_bracket : forall cum : list Q, nth 0 cum 0 <= 0 -> 0 < payback cum ->
  exists i, (S i < length cum)%nat /\ nth i cum 0 <= 0 /\ 0 < nth (S i) cum 0 /\
            natQ (S i) <= payback cum /\ payback cum <= natQ (S i) + 1.
Proof.
  intros cum H0 Hpos. destruct (payback_bracket cum Hpos) as (i & (Hlt & Hp & Hprev) & Hb).
  destruct i as [|i]; [lra|]. exists i. simpl in Hprev. auto.
Qed.
Print Assumptions C04_payback_bracket.

(* ... and it is 0 (printed as N/A) exactly when cumulative cash flow never turns positive *)
Theorem C04_payback_na : forall cum : list Q, nth 0 cum 0 <= 0 ->
  (payback cum == 0 <-> forall i, ~ crossing cum i).
Proof. exact payback_zero_iff. Qed.
Print Assumptions C04_payback_na.

(* NPV as computed (Horner) is the documented discounted sum *)
Theorem C04_npv_discounted_sum : forall (r : Q) (cf : list Q), ~ 1 + r == 0 ->
  npv r cf == npv_sigma_from r 0 cf.
Proof. exact npv_is_discounted_sum. Qed.
Print Assumptions C04_npv_discounted_sum.

(* both NPV discounting conventions have the same roots: an IRR zeroes one iff it zeroes the other *)
Theorem C04_npv_conventions_same_roots : forall (r : Q) (cf : list Q), ~ 1 + r == 0 ->
  (calculate_npv r cf true == 0 <-> calculate_npv r cf false == 0).
Proof.
  intros r cf Hr. pose proof (npv_conventions r cf Hr) as H. split; intros Hz.
  - rewrite <- H, Hz. ring.
  - rewrite Hz in H. destruct (Qmult_integral _ _ H) as [|Hc]; [assumption|contradiction].
Qed.
Print Assumptions C04_npv_conventions_same_roots.

Theorem C04_vir : forall n capex : Q, ~ capex == 0 -> (vir n capex - 1) * capex == n.
Proof. intros n capex H. unfold vir. field. assumption. Qed.
Print Assumptions C04_vir.

Theorem C04_moic : forall (cum : list Q) (capex opex : Q) (life : nat), ~ capex + opex * natQ life == 0 ->
  moic cum capex opex life * (capex + opex * natQ life) == last cum 0.
Proof. intros cum capex opex life H. unfold moic. field. assumption. Qed.
Print Assumptions C04_moic.

(* the reduced-fraction evaluators used by the correspondence compute the same values *)
Theorem C04_executable_forms : forall (r : Q) (cf : list Q) (d : bool) (l : list Q),
  calculate_npv_red r cf d == calculate_npv r cf d /\ Forall2 Qeq (running_red_from 0 l) (running l).
Proof. intros r cf d l. split; [apply calculate_npv_red_eq | apply running_red_from_eq; reflexivity]. Qed.
Print Assumptions C04_executable_forms.

(* a conventional cash flow (non-positive years, at least one strictly negative, followed by non-negative years) has at
   most one internal rate of return above -100 %: NPV(r)(1+r)^k is strictly decreasing.  So for such a series the reported
   IRR - checked on every run to zero the modelled NPV - is THE rate implied by the series. *)
Theorem C04_irr_unique : forall (r1 r2 : Q) (neg pos : list Q), 0 < 1 + r1 -> 0 < 1 + r2 ->
  nonpos neg -> Exists (fun c => c < 0) neg -> nonneg pos ->
  npv r1 (neg ++ pos) == 0 -> npv r2 (neg ++ pos) == 0 -> r1 == r2.
Proof. exact irr_unique. Qed.
Print Assumptions C04_irr_unique.

(* in particular for the modelled project cash flow with positive capital cost and non-negative operating years *)
Theorem C04_project_irr_unique : forall (c : cf_in) (r1 r2 : Q),
  0 < ci_ccap c -> (1 <= ci_cy c)%nat -> nonneg (total_ops c) ->
  0 < 1 + r1 -> 0 < 1 + r2 -> npv r1 (total_cashflow c) == 0 -> npv r2 (total_cashflow c) == 0 -> r1 == r2.
Proof.
  intros c r1 r2 Hc Hcy Hops H1 H2. pose proof (capex_year_neg c Hc Hcy) as Hneg. unfold total_cashflow.
  apply irr_unique; try assumption.
  - apply Forall_forall. intros x Hx. apply repeat_spec in Hx. subst x. now apply Qlt_le_weak.
  - destruct (ci_cy c); [lia|]. now apply Exists_cons_hd.
Qed.
Print Assumptions C04_project_irr_unique.

(* ---- non-vacuity: a concrete cogeneration run with carbon revenue, 2 construction + 3 operating years ---- *)
Definition ex_c : cf_in :=
  {| ci_kind := KCogen; ci_cy := 2; ci_ccap := 30; ci_coam := 2; ci_carbon := true; ci_gi := 1#2; ci_ni := 1#4;
     ci_eE := [100000000; 90000000; 80000000]; ci_eH := [40000000; 40000000; 30000000]; ci_eC := [];
     ci_pE := [7#100; 7#100; 8#100]; ci_pH := [2#100; 2#100; 2#100]; ci_pC := [0; 0; 0];
     ci_pCarb := [1#100; 1#100; 1#100] |}.
Example ex_wf : wf ex_c 3.
Proof. unfold wf, ex_c; simpl. repeat split; reflexivity. Qed.
Example ex_cashflow : map Qred (total_cashflow ex_c) = [-15; -15; 32#5; 113#20; 219#40].
Proof. vm_compute. reflexivity. Qed.
Example ex_payback_hyp : nth 0 (cumulative ex_c) 0 <= 0 /\ payback (cumulative ex_c) == 0.
Proof. split; vm_compute; [discriminate | reflexivity]. Qed.
Example ex_payback_positive :
  let cum := running [-10; 4; 4; 4; 4] in nth 0 cum 0 <= 0 /\ 0 < payback cum /\ Qred (payback cum) = 7#2.
Proof. cbv zeta. repeat split; vm_compute; try reflexivity; discriminate. Qed.
Example ex_irr : let cf := [-100; 60; 60] in npv (1 # 5) cf < 0 /\ 0 < npv (1 # 10) cf /\ nonpos [-100] /\ nonneg [60; 60].
Proof. cbv zeta. repeat split; try (vm_compute; reflexivity); repeat constructor; unfold Qle; simpl; lia. Qed.
