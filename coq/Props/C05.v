(* Props/C05.v - Resource temperature and thermal drawdown obey the model definition.
   The statements of the property.  What needs an induction or a case analysis is a lemma of Proofs/; what a model
   definition gives by computation is proved here.
   Models: Model/Gradient.v (read_parameters heuristics + Reservoir.Calculate walk), Model/ResCalc.v (the rest of
   Reservoir.Calculate), Model/Drawdown.v (reservoir models 1-4), Model/Redrill.v (WellBores.Calculate redrilling step). *)
From Coq Require Import QArith Qminmax List ZArith Bool Lia Lqa.
From Verif Require Import Base.Flat Model.Gradient Model.Redrill Model.Drawdown Model.ResCalc Proofs.ResCalcProofs
  Proofs.GradientProofs Proofs.RedrillProofs Proofs.DrawdownProofs Gen.C05Ranges Proofs.C05RangeProofs.
Import ListNotations.
Open Scope Q_scope.

(* for ANY number of layers: the walk is surface temperature + integral of the segment gradients down to d *)
Theorem C05_walk_eq_integral : forall Ts upper gb d,
  Forall (fun p => 0 <= snd p) upper -> 0 <= d ->
  Tprofile Ts upper gb d == Ts + grad_integral upper gb 0 d.
Proof. exact Tprofile_eq_integral. Qed.
Print Assumptions C05_walk_eq_integral.

(* bottom-hole temperature = min(T(depth), Tmax) *)
Theorem C05_cap : forall Ts Tmax upper gb depth, wf upper gb -> Ts <= Tmax ->
  trock Ts Tmax upper gb depth == Qmin (Tprofile Ts upper gb depth) Tmax.
Proof. exact trock_is_min. Qed.
Print Assumptions C05_cap.

Theorem C05_never_above_Tmax : forall Ts Tmax upper gb depth, wf upper gb -> Ts <= Tmax ->
  trock Ts Tmax upper gb depth <= Tmax.
Proof. exact trock_le_Tmax. Qed.
Print Assumptions C05_never_above_Tmax.

(* the depth is reduced exactly when the temperature at the requested depth would exceed Tmax, and then to
   the depth at which Tmax is reached *)
Theorem C05_depth_reduced_exactly_when_needed : forall Ts Tmax upper gb depth, wf upper gb -> Ts <= Tmax ->
  (Tprofile Ts upper gb depth <= Tmax ->
     Tprofile Ts upper gb (capped_depth Ts Tmax upper gb depth) == Tprofile Ts upper gb depth) /\
  (Tmax < Tprofile Ts upper gb depth ->
     capped_depth Ts Tmax upper gb depth < depth /\
     Tprofile Ts upper gb (capped_depth Ts Tmax upper gb depth) == Tmax).
Proof.
  intros Ts Tmax upper gb depth Hwf HT. split; intros H.
  apply capped_temperature_unchanged; assumption. apply capped_depth_reduced; assumption.
Qed.
Print Assumptions C05_depth_reduced_exactly_when_needed.

(* the code-shaped computation of Reservoir.Calculate (interface list pre-filled with 1000, next(), cumsum,
   max()) is that function, for 1..4 segments and any list contents *)
Theorem C05_code_walk_refines : forall n Ts Tmax gs ths depth,
  (1 <= n <= 4)%nat -> (n <= length gs)%nat -> (n <= length ths)%nat ->
  Forall (fun g => 0 < g) gs -> Forall (fun t => 0 < t) ths ->
  Ts < Tmax -> Tmax < 1000 -> 0 < depth -> depth <= sumQ (firstn n ths) ->
  exists T d, bht_code n Ts Tmax gs ths depth = Good (T, d) /\
    d == capped_depth Ts Tmax (upper_of n gs ths) (bottom_of n gs) depth /\
    T == trock Ts Tmax (upper_of n gs ths) (bottom_of n gs) depth.
Proof. exact bht_code_refines. Qed.
Print Assumptions C05_code_walk_refines.

(* from the input file: for every accepted input (1..4 segments, ANY gradients, positive thicknesses, depth in
   (0,100] km or omitted (then 3 km), Tsurf < Tmax < 1000) the magnitude heuristics give well-formed layers, the run succeeds and
   bottom-hole temperature = min(T(depth walked), Tmax) <= Tmax *)
Theorem C05_bht_of_input : forall i, input_ok i ->
  let gs := gradients_of i in let ths := thicknesses_of i in
  let upper := upper_of (bi_n i) gs ths in let gb := bottom_of (bi_n i) gs in
  wf upper gb /\
  exists T d, bht_of_input i = Good (T, d) /\
    T == Qmin (Tprofile (bi_Ts i) upper gb (depth_metres (bi_depth_km i))) (bi_Tmax i) /\
    T <= bi_Tmax i /\
    d == capped_depth (bi_Ts i) (bi_Tmax i) upper gb (depth_metres (bi_depth_km i)).
Proof. exact bht_of_input_correct. Qed.
Print Assumptions C05_bht_of_input.

(* every input inside the ranges the CURRENT source accepts (Gen/C05Ranges.v, regenerated from Reservoir.py on every
   run) with Tsurf < Tmax satisfies those hypotheses; widening a range beyond them (e.g. Tmax up to the 1000 degC pre-fill
   of the interface list) breaks this proof *)
Theorem C05_accepted_inputs : forall i, in_ranges i -> bi_Ts i < bi_Tmax i -> input_ok i.
Proof.
  intros i [Hn [_ [[_ HTmax] [Hd Ht]]]] HT. destruct ranges_facts as [Rn [Rt [Rd0 [Rd1 [Rth _]]]]].
  split; [exact (proj1 (Forall_forall _ _) Rn _ Hn)|]. split; [exact HT|]. split; [lra|]. split.
  - destruct (bi_depth_km i) as [km|]; [|exact I]. specialize (Hd km eq_refl). lra.
  - intros v Hv. specialize (Ht v Hv). lra.
Qed.
Print Assumptions C05_accepted_inputs.

(* the property's first sentence, for every accepted input, with or without a Reservoir Depth line *)
Theorem C05_bht_meets_definition : forall i, input_ok i ->
  exists T d, bht_of_input i = Good (T, d) /\ T == bht_spec i.
Proof.
  intros i Hok. destruct (bht_of_input_correct i Hok) as [Hwf [T [d [Hc [HT _]]]]].
  exists T, d. split; [exact Hc|]. rewrite HT. unfold bht_spec. cbv zeta.
  change (depth_denoted_metres (bi_depth_km i)) with (depth_metres (bi_depth_km i)).
  rewrite Tprofile_eq_integral; [reflexivity|exact (wf_thick_nonneg _ _ Hwf)|].
  apply Qlt_le_weak, (depth_metres_range i Hok).
Qed.
Print Assumptions C05_bht_meets_definition.

(* the pinned tree (before fix a8610e4) failed it without that line: the 3 km default was walked as 3 m (15.15 degC
   instead of 165 degC); kept as a named alternative, the witness is corpus/C05/01_depth_omitted.json *)
Theorem C05_bht_default_depth_pinned_refuted :
  exists i, input_ok i /\ bi_depth_km i = None /\
            exists T d, bht_of_input_pinned i = Good (T, d) /\ ~ T == bht_spec i.
Proof.
  exists default_depth_witness. split; [exact default_depth_witness_ok|]. split; [reflexivity|].
  eexists. eexists. split. vm_compute. reflexivity. vm_compute. discriminate.
Qed.
Print Assumptions C05_bht_default_depth_pinned_refuted.

(* inside the usual ranges the heuristics read gradients as degC/km and thicknesses as km *)
Theorem C05_heuristics_keep_documented_units :
  (forall g, 1 < g -> g <= 500 -> norm_gradient g == g / 1000) /\
  (forall t, t < 100 -> norm_thickness t == t * 1000).
Proof. split. exact norm_gradient_per_km. exact norm_thickness_km. Qed.
Print Assumptions C05_heuristics_keep_documented_units.

Theorem C05_head_tdp : forall Trock Tinj dd ts, ts <> [] -> hd 0 ts == 0 ->
  hd 0 (tdp_series Trock Tinj dd ts) == Trock.
Proof. exact tdp_head. Qed.
Print Assumptions C05_head_tdp.

Theorem C05_head_sf : forall erf sqrt Trock Tinj dd cpw K ts, ts <> [] ->
  hd 0 (sf_series erf sqrt Trock Tinj dd cpw K ts) = Trock.
Proof. exact sf_head. Qed.
Print Assumptions C05_head_sf.

Theorem C05_head_mpf : forall Trock Tinj tw, hd 0 (mpf_series Trock Tinj tw) = Trock.
Proof. reflexivity. Qed.
Print Assumptions C05_head_mpf.

Theorem C05_head_lhs : forall Trock Tinj tw, hd 0 (lhs_series Trock Tinj tw) = Trock.
Proof. intros. apply lhs_clamp_Trock. Qed.
Print Assumptions C05_head_lhs.

Theorem C05_timevector_starts_at_zero : forall L n, (1 <= n)%nat -> hd 0 (timevector L n) == 0.
Proof. intros L n _. apply timevector_hd. Qed.
Print Assumptions C05_timevector_starts_at_zero.

Theorem C05_head_preserved : forall P T maxdd, (1 <= length P)%nat -> length T = length P ->
  hd 0 (rd_T (redrill P T maxdd)) = hd 0 T.
Proof. intros P T maxdd _ _. apply head_preserved. Qed.
Print Assumptions C05_head_preserved.

(* for EVERY history with a non-negative initial production temperature and every non-negative limit (the bound
   maxdd <= 1 plays no part): no production temperature of the result is below (1 - maxdrawdown) x the initial one *)
Theorem C05_redrill_floor : forall P T maxdd, 0 <= hd 0 P -> 0 <= maxdd <= 1 ->
  Forall (fun x => drawdown_limit maxdd P <= x) (rd_P (redrill P T maxdd)).
Proof. exact redrill_floor. Qed.
Print Assumptions C05_redrill_floor.

(* a negative initial production temperature lies below its own limit and is never redrilled
   (corpus/C05/04_negative_initial_production_temperature.json) *)
Theorem C05_redrill_floor_negative_refuted :
  exists P T maxdd, hd 0 P < 0 /\ 0 < maxdd <= 1 /\
    ~ Forall (fun x => drawdown_limit maxdd P <= x) (rd_P (redrill P T maxdd)).
Proof.
  exists [-(3); -(3)], [2; 2], (1 # 10). split; [reflexivity|]. split; [split; [reflexivity|discriminate]|].
  (* the first element lies below its own limit, so index 0 is returned and nothing is redrilled *)
  intros H. change (rd_P (redrill [-(3); -(3)] [2; 2] (1 # 10))) with [-(3); -(3)] in H.
  apply Forall_inv in H. apply H. reflexivity.
Qed.
Print Assumptions C05_redrill_floor_negative_refuted.

Theorem C05_redrill_length : forall P T maxdd,
  length (rd_P (redrill P T maxdd)) = length P /\
  (length T = length P -> length (rd_T (redrill P T maxdd)) = length P).
Proof. exact redrill_length. Qed.
Print Assumptions C05_redrill_length.

(* wells are redrilled at the first step whose production temperature is below the limit ... *)
Theorem C05_redrill_index : forall P maxdd, index_of P maxdd <> 0%nat ->
  nth (index_of P maxdd) P 0 < drawdown_limit maxdd P /\
  Forall (fun x => drawdown_limit maxdd P <= x) (firstn (index_of P maxdd) P).
Proof. exact index_spec. Qed.
Print Assumptions C05_redrill_index.

(* ... never otherwise ... *)
Theorem C05_redrill_unchanged : forall P T maxdd, index_of P maxdd = 0%nat ->
  rd_P (redrill P T maxdd) = P /\ rd_T (redrill P T maxdd) = T /\ rd_count (redrill P T maxdd) = 0%nat.
Proof. intros P T maxdd E. rewrite redrill_unchanged by assumption. repeat split. Qed.
Print Assumptions C05_redrill_unchanged.

(* ... and both series then repeat their first cycle: element j is element (j mod index) *)
Theorem C05_redrill_cycle : forall P T maxdd, index_of P maxdd <> 0%nat -> length T = length P ->
  forall j, (j < length P)%nat ->
    nth j (rd_P (redrill P T maxdd)) 0 = nth (j mod index_of P maxdd) P 0 /\
    nth j (rd_T (redrill P T maxdd)) 0 = nth (j mod index_of P maxdd) T 0.
Proof. exact redrill_cycle. Qed.
Print Assumptions C05_redrill_cycle.

(* the profile restarts from its beginning at every multiple of the index inside the series *)
Theorem C05_redrill_restarts : forall P T maxdd, index_of P maxdd <> 0%nat -> length T = length P ->
  forall k, (k * index_of P maxdd < length P)%nat ->
    nth (k * index_of P maxdd) (rd_P (redrill P T maxdd)) 0 = hd 0 P /\
    nth (k * index_of P maxdd) (rd_T (redrill P T maxdd)) 0 = hd 0 T.
Proof.
  intros P T maxdd E HT k Hk. destruct (redrill_cycle P T maxdd E HT _ Hk) as [-> ->].
  rewrite Nat.mod_mul by assumption. destruct P, T; split; reflexivity.
Qed.
Print Assumptions C05_redrill_restarts.

(* the reported count is floor(length / index) >= 1; all reported redrillings but possibly the last fall inside
   the series; the last one does iff the index does not divide the length *)
Theorem C05_redrill_count_partial : forall P T maxdd, index_of P maxdd <> 0%nat ->
  let idx := index_of P maxdd in let r := rd_count (redrill P T maxdd) in
  r = (length P / idx)%nat /\ (1 <= r)%nat /\ ((r - 1) * idx < length P)%nat /\
  ((r * idx < length P)%nat <-> (length P mod idx <> 0)%nat) /\
  ((length P mod idx = 0)%nat -> (r * idx = length P)%nat).
Proof.
  intros P T maxdd E. cbv zeta. rewrite redrill_changed by assumption. cbn [rd_count].
  split; [reflexivity|]. apply cycle_count_facts; [assumption|apply index_lt; assumption].
Qed.
Print Assumptions C05_redrill_count_partial.

(* "restarting at each reported redrilling" fails when the index divides the length: 2 reported, 1 restart
   (corpus/C05/05_cycle_divides_length.json) *)
Theorem C05_redrill_count_refuted :
  exists P T maxdd, 0 <= hd 0 P /\ 0 < maxdd <= 1 /\ length T = length P /\ index_of P maxdd <> 0%nat /\
    ~ (rd_count (redrill P T maxdd) * index_of P maxdd < length P)%nat.
Proof.
  exists [100; 95; 80; 70], [100; 95; 80; 70], (1 # 10).
  split; [discriminate|]. split; [split; [reflexivity|discriminate]|]. split; [reflexivity|].
  split. vm_compute. discriminate. vm_compute. lia.
Qed.
Print Assumptions C05_redrill_count_refuted.

(* WellBores.Calculate called again on the same object (district heating): whatever count the earlier call left, the
   result - series, index and count - is that of a fresh call (the code resets the count since fix 825a507) *)
Theorem C05_second_call : forall prev P T maxdd, redrill_call prev P T maxdd = redrill P T maxdd.
Proof. reflexivity. Qed.
Print Assumptions C05_second_call.

Theorem C05_second_call_series : forall prev P T maxdd,
  rd_P (redrill_call prev P T maxdd) = rd_P (redrill P T maxdd) /\
  rd_T (redrill_call prev P T maxdd) = rd_T (redrill P T maxdd) /\
  rd_index (redrill_call prev P T maxdd) = rd_index (redrill P T maxdd).
Proof. repeat split. Qed.
Print Assumptions C05_second_call_series.

Theorem C05_second_call_count : forall prev P T maxdd,
  rd_count (redrill_call prev P T maxdd) = rd_count (redrill P T maxdd) /\
  (index_of P maxdd = 0%nat -> rd_count (redrill_call prev P T maxdd) = 0%nat).
Proof.
  split. reflexivity. intros E. unfold redrill_call. rewrite redrill_unchanged by assumption. reflexivity.
Qed.
Print Assumptions C05_second_call_count.

(* the pinned tree (before the fix) kept the earlier count when the second call did not redrill: right only when the
   object was fresh or the second call redrills ... *)
Theorem C05_second_call_pinned_count_partial : forall prev P T maxdd, prev = 0%nat \/ index_of P maxdd <> 0%nat ->
  rd_count (redrill_call_pinned prev P T maxdd) = rd_count (redrill P T maxdd).
Proof.
  intros prev P T maxdd H. unfold redrill_call_pinned. cbv zeta. rewrite redrill_index.
  destruct (Nat.eqb_spec (index_of P maxdd) 0) as [E|E]; [|reflexivity].
  destruct H as [->|H]; [|contradiction]. rewrite redrill_unchanged by assumption. reflexivity.
Qed.
Print Assumptions C05_second_call_pinned_count_partial.

(* ... otherwise the first call's count was reported for a profile that never restarts
   (regression witness on the implementation: corpus/C05/06_district_heating_stale_redrill_count.json) *)
Theorem C05_second_call_pinned_stale_count_refuted :
  exists prev P T maxdd, 0 <= hd 0 P /\ 0 < maxdd <= 1 /\ index_of P maxdd = 0%nat /\
    rd_P (redrill_call_pinned prev P T maxdd) = P /\ rd_count (redrill_call_pinned prev P T maxdd) <> 0%nat /\
    rd_count (redrill_call prev P T maxdd) = 0%nat.
Proof.
  exists 1%nat, [100; 99; 98], [105; 104; 103], (1 # 10).
  split; [discriminate|]. split; [split; [reflexivity|discriminate]|]. split; [reflexivity|]. split; [reflexivity|].
  split. vm_compute. discriminate. reflexivity.
Qed.
Print Assumptions C05_second_call_pinned_stale_count_refuted.

(* models 4 and 3: bounded by bottom-hole temperature, never rising inside a cycle *)

(* every lifetime L, step count n, wellbore-drop series, drawdown rate and limit; hypothesis: injection temperature
   (after the wellbore gain) not above bottom-hole temperature *)
Theorem C05_tdp_monotone_bounded_partial : forall Trock Tinj dd maxdd L n drops,
  0 <= L -> (1 <= n)%nat -> 0 <= dd -> Tinj <= Trock -> length drops = n ->
  history_ok Trock n (finish (tdp_series Trock Tinj dd (timevector L n)) drops maxdd).
Proof.
  intros Trock Tinj dd maxdd L n drops HL Hn Hd HT Hdr. apply history_ok_intro; try assumption.
  - unfold tdp_series. rewrite map_length. apply timevector_length.
  - apply tdp_head; [apply timevector_nonempty, Hn|apply timevector_hd].
  - apply tdp_bounded; try assumption. apply timevector_nonneg, HL.
  - apply tdp_noninc; try assumption. apply timevector_nondec, HL.
Qed.
Print Assumptions C05_tdp_monotone_bounded_partial.

(* with injection above bottom-hole temperature the same formula rises, above bottom-hole temperature
   (corpus/C05/02_tinj_above_bht_tdp.json, 03_tinj_above_bht_sf.json) *)
Theorem C05_tdp_rises_refuted :
  exists Trock Tinj dd ts, Trock < Tinj /\ 0 < dd /\ nondec ts /\ Forall (fun t => 0 <= t) ts /\
    ~ noninc (tdp_series Trock Tinj dd ts) /\ ~ Forall (fun x => x <= Trock) (tdp_series Trock Tinj dd ts).
Proof.
  exists 30, 70, (1 # 100), [0; 5; 10]. split; [reflexivity|]. split; [reflexivity|].
  split. repeat split; discriminate. split. repeat constructor; discriminate.
  split.
  - intros [H _]. apply H. reflexivity.
  - intros H. apply Forall_inv_tail, Forall_inv in H. apply H. reflexivity.
Qed.
Print Assumptions C05_tdp_rises_refuted.

(* single fracture: erf and sqrt are library functions; what is used of them is stated *)
Theorem C05_sf_monotone_bounded_partial : forall (erf sqrt : Q -> Q) Trock Tinj dd cpw K maxdd L n drops,
  (forall x y, 0 <= x -> x <= y -> erf x <= erf y) -> (forall x, 0 <= x -> 0 <= erf x /\ erf x <= 1) ->
  (forall x y, 0 <= x -> x <= y -> sqrt x <= sqrt y) -> (forall x, 0 <= x -> 0 <= sqrt x) ->
  0 < L -> (1 <= n)%nat -> 0 < dd -> 0 < cpw -> 0 <= K -> Tinj <= Trock -> length drops = n ->
  history_ok Trock n (finish (sf_series erf sqrt Trock Tinj dd cpw K (timevector L n)) drops maxdd).
Proof.
  intros erf sqrt Trock Tinj dd cpw K maxdd L n drops E1 E2 S1 S2 HL Hn Hd Hc HK HT Hdr.
  destruct (sf_noninc_bounded erf sqrt E1 E2 S1 S2 dd cpw K Hd Hc HK Trock Tinj HT (timevector L n)) as [Hi Hb].
  apply timevector_tl_pos, HL. apply nondec_tl, timevector_nondec, Qlt_le_weak, HL.
  apply history_ok_intro; try assumption.
  - rewrite sf_series_length. apply timevector_length.
  - rewrite sf_head by (apply timevector_nonempty, Hn). reflexivity.
Qed.
Print Assumptions C05_sf_monotone_bounded_partial.

(* model 2 replaces every value outside [Tinj, Trock] by Trock *)
Theorem C05_lhs_range : forall Trock Tinj tw,
  Forall (fun x => x = Trock \/ (Tinj <= x /\ x <= Trock)) (lhs_series Trock Tinj tw).
Proof.
  intros. unfold lhs_series. apply Forall_forall. intros x Hx. apply in_map_iff in Hx. destruct Hx as [y [<- _]].
  apply lhs_clamp_range.
Qed.
Print Assumptions C05_lhs_range.

Theorem C05_floor_checker_sound : forall maxdd P, floor_ok 0 maxdd P = true ->
  Forall (fun x => drawdown_limit maxdd P <= x) P.
Proof.
  intros maxdd P H. apply all_ge_sound in H. eapply Forall_impl; [|exact H].
  cbv beta. unfold slack. intros x Hx. lra.
Qed.
Print Assumptions C05_floor_checker_sound.

Theorem C05_periodic_checker_sound : forall idx l, periodic idx l = true ->
  forall j, (j + idx < length l)%nat -> nth (j + idx) l 0 == nth j l 0.
Proof.
  intros idx l H j Hj. pose proof (prefix_eq_sound _ _ H j) as Hs.
  rewrite skipn_length, FlatFacts.nth_skipn, Nat.add_comm in Hs. apply Hs; lia.
Qed.
Print Assumptions C05_periodic_checker_sound.

(* the monotone-within-cycles checker: an accepted series never rises inside a cycle (tol = 0: slack = 0) *)
Theorem C05_monotone_checker_sound : forall tol idx l, noninc_between tol idx l = true ->
  forall j, (S j < length l)%nat -> (S j mod cycle_of idx l <> 0)%nat ->
    nth (S j) l 0 <= nth j l 0 + slack tol (nth j l 0).
Proof. exact noninc_between_sound. Qed.
Print Assumptions C05_monotone_checker_sound.

Theorem C05_bound_checker_sound : forall hi l, all_le hi l = true -> Forall (fun x => x <= hi) l.
Proof. exact all_le_sound. Qed.
Print Assumptions C05_bound_checker_sound.

(* the model-2 range checker (run on every model-2 history) *)
Theorem C05_lhs_range_checker_sound : forall Trock Tinj l, lhs_range_ok 0 Trock Tinj l = true ->
  Forall (fun x => x == Trock \/ (Tinj <= x /\ x <= Trock)) l.
Proof. exact lhs_range_ok_sound. Qed.
Print Assumptions C05_lhs_range_checker_sound.

(* average gradient x (capped) depth = bottom-hole temperature - surface temperature, for 1..4 segments *)
Theorem C05_average_gradient : forall n Ts Tmax gs ths depth,
  (1 <= n <= 4)%nat -> (n <= length gs)%nat -> (n <= length ths)%nat ->
  Forall (fun g => 0 < g) gs -> Forall (fun t => 0 < t) ths ->
  Ts < Tmax -> Tmax < 1000 -> 0 < depth -> depth <= sumQ (firstn n ths) ->
  exists T d, bht_code n Ts Tmax gs ths depth = Good (T, d) /\ 0 < d /\
              average_gradient n gs Ts T d * d == T - Ts.
Proof.
  intros n Ts Tmax gs ths depth Hn Hg Ht Hgs Hths HT Hpre Hd0 Hd1.
  destruct (bht_code_refines n Ts Tmax gs ths depth Hn Hg Ht Hgs Hths HT Hpre Hd0 Hd1) as [T [d [Hc [Hd HTr]]]].
  pose proof (capped_depth_pos Ts Tmax _ _ depth (wf_of_lists n gs ths (conj (proj1 Hn) Hg) Hgs Hths) HT Hd0) as Hpos.
  exists T, d. split; [exact Hc|]. split; [lra|].
  unfold average_gradient. destruct (Nat.eqb_spec n 1) as [->|_].
  - (* one segment: the walk is Ts + g1 x depth *)
    rewrite trock_one_segment in HTr. rewrite Hd. lra.
  - rewrite Qmult_comm. apply Qmult_div_r. lra.
Qed.
Print Assumptions C05_average_gradient.

(* fracture geometry by shape option; sqrt enters as the premise sq * sq == 4 / pi * area *)
Theorem C05_fracture_geometry : forall pi sq s,
  (let g := frac_geometry 1 pi sq s in
     fs_height g = sq /\ fs_width g = sq /\ fs_area g = fs_area s /\
     (~ pi == 0 -> sq * sq == 4 / pi * fs_area s -> pi / 4 * fs_height g * fs_width g == fs_area g)) /\
  (let g := frac_geometry 2 pi sq s in
     fs_height g = fs_height s /\ fs_width g = fs_height s /\ fs_area g = pi / 4 * fs_height s * fs_height s) /\
  (let g := frac_geometry 3 pi sq s in
     fs_height g = fs_height s /\ fs_width g = fs_height s /\ fs_area g = fs_height s * fs_height s) /\
  (let g := frac_geometry 4 pi sq s in
     fs_height g = fs_height s /\ fs_width g = fs_width s /\ fs_area g = fs_height s * fs_width s).
Proof.
  intros pi sq s. cbv zeta. unfold frac_geometry. cbn. repeat split. apply circle_area.
Qed.
Print Assumptions C05_fracture_geometry.

(* reservoir volume options 1-3: whichever quantity is derived, V = (N - 1) x A x separation afterwards *)
Theorem C05_volume_identity : forall r s, geometry_of r = Good s -> (1 <= ri_opt r <= 3)%Z ->
  fs_vol s == (fs_numb s - 1) * fs_area s * fs_sep s.
Proof.
  intros r s H Hopt. apply (res_volume_identity _ _ _ _ H Hopt).
  destruct (geometry_keeps (ri_shape r) (ri_pi r) (ri_sqrt r) (initial_state r)) as [_ [_ ->]]. reflexivity.
Qed.
Print Assumptions C05_volume_identity.

(* option 4: the supplied volume (and fracture number and separation) verbatim *)
Theorem C05_volume_option4_verbatim : forall r, ri_opt r = 4%Z ->
  exists s, geometry_of r = Good s /\ fs_vol s = ri_resvol r /\ fs_numb s = ri_numb r /\ fs_sep s = ri_sep r.
Proof.
  intros r E. unfold geometry_of. rewrite E. cbn [res_volume Z.eqb]. eexists. split; [reflexivity|].
  destruct (geometry_keeps (ri_shape r) (ri_pi r) (ri_sqrt r) (initial_state r)) as [-> [-> ->]]. repeat split.
Qed.
Print Assumptions C05_volume_option4_verbatim.

Theorem C05_heat_linear_in_volume : forall k vol rho cp T Tinj,
  heat_content (k * vol) rho cp T Tinj == k * heat_content vol rho cp T Tinj.
Proof.
  intros. pose proof (heat_content_volume (k * vol) rho cp T Tinj). pose proof (heat_content_volume vol rho cp T Tinj). nra.
Qed.
Print Assumptions C05_heat_linear_in_volume.

Theorem C05_heat_additive_in_volume : forall v1 v2 rho cp T Tinj,
  heat_content (v1 + v2) rho cp T Tinj == heat_content v1 rho cp T Tinj + heat_content v2 rho cp T Tinj.
Proof.
  intros. pose proof (heat_content_volume (v1 + v2) rho cp T Tinj). pose proof (heat_content_volume v1 rho cp T Tinj).
  pose proof (heat_content_volume v2 rho cp T Tinj). lra.
Qed.
Print Assumptions C05_heat_additive_in_volume.

Theorem C05_heat_nonneg : forall vol rho cp T Tinj, 0 <= vol -> 0 <= rho -> 0 <= cp -> Tinj <= T ->
  0 <= heat_content vol rho cp T Tinj.
Proof.
  intros vol rho cp T Tinj Hv Hr Hc HT. unfold heat_content. apply Qle_shift_div_l; [reflexivity|]. rewrite Qmult_0_l.
  assert (0 <= vol * rho) by nra. assert (0 <= vol * rho * cp) by nra. nra.
Qed.
Print Assumptions C05_heat_nonneg.

Theorem C05_cylindrical_single_layer : forall Ts g0 din, cyl_trock Ts g0 din = Tprofile Ts [] g0 (din * 1000).
Proof. reflexivity. Qed.
Print Assumptions C05_cylindrical_single_layer.

(* the cylindrical reservoir does not apply the Tmax cap (outside the property's quantifier: reservoir model 0) *)
Theorem C05_cylindrical_no_cap_refuted : exists Ts g0 din Tmax, Ts < Tmax /\ 0 < g0 /\ Tmax < cyl_trock Ts g0 din.
Proof. exists 15, (7 # 100), 9, 600. repeat split. Qed.
Print Assumptions C05_cylindrical_no_cap_refuted.

Theorem C05_sbt_single_segment : forall Ts g0 rest ep, sbt_trock 1 Ts (g0 :: rest) ep == Tprofile Ts [] g0 ep.
Proof. intros. unfold sbt_trock, sbt_average_gradient. cbn. unfold natQ. cbn. field. Qed.
Print Assumptions C05_sbt_single_segment.

(* SBT averages the segment gradients without their thicknesses (outside the property's quantifier: reservoir model 8) *)
Theorem C05_sbt_unweighted_mean_refuted :
  exists Ts g1 th1 g2 ep, 0 < g1 /\ 0 < g2 /\ 0 < th1 /\ th1 < ep /\
    ~ sbt_trock 2 Ts [g1; g2] ep == Tprofile Ts [(g1, th1)] g2 ep.
Proof. exists 15, (8 # 100), 1000, (4 # 100), 3000. repeat split. vm_compute. discriminate. Qed.
Print Assumptions C05_sbt_unweighted_mean_refuted.

(* well-formed layers with Tsurf <= Tmax: 15 degC, 50 degC/km over 2 km, 30 degC/km over 1 km, 80 degC/km below; Tmax 400 *)
Example C05_ex_layers :
  wf [(5 # 100, 2000); (3 # 100, 1000)] (8 # 100) /\ 15 <= 400 /\
  trock 15 400 [(5 # 100, 2000); (3 # 100, 1000)] (8 # 100) 3500 == 185 /\
  trock 15 150 [(5 # 100, 2000); (3 # 100, 1000)] (8 # 100) 3500 == 150.
Proof. split. split. reflexivity. repeat constructor. split. discriminate. split; vm_compute; reflexivity. Qed.

(* an accepted 3-segment input with a depth line: hypotheses of C05_bht_of_input / C05_bht_meets_definition *)
Definition C05_ex_input : bht_input :=
  {| bi_n := 3; bi_Ts := 12; bi_Tmax := 181; bi_depth_km := Some (45 # 10);
     bi_grad := [Some (514 # 10); Some (799 # 10); Some (699 # 10)]; bi_thick := [Some (52 # 100); Some (43 # 100)] |}.
Example C05_ex_input_ok :
  input_ok C05_ex_input /\ bi_depth_km C05_ex_input = Some (45 # 10) /\
  exists T d, bht_of_input C05_ex_input = Good (T, d) /\ T == 181 /\ d < 4500.
Proof.
  split.
  - split; [split; repeat constructor|]. split; [reflexivity|]. split; [reflexivity|].
    split; [split; [reflexivity|discriminate]|].
    intros v [H|[H|[]]]; injection H as <-; reflexivity.
  - split. reflexivity. eexists. eexists. split. vm_compute. reflexivity. split; vm_compute; reflexivity.
Qed.

(* a history that needs two redrillings: hypotheses of the redrill theorems (P[0] >= 0, limit in [0,1], index <> 0) *)
Example C05_ex_redrill :
  let P := [100; 98; 95; 89; 85; 80; 70] in
  0 <= hd 0 P /\ index_of P (1 # 10) = 3%nat /\
  rd_P (redrill P P (1 # 10)) = [100; 98; 95; 100; 98; 95; 100] /\ rd_count (redrill P P (1 # 10)) = 2%nat.
Proof. cbv zeta. split. discriminate. split. reflexivity. split; vm_compute; reflexivity. Qed.

(* hypotheses of the TDP theorem: lifetime 10, 5 steps, Tinj 50 <= Trock 200 *)
Example C05_ex_tdp :
  0 <= 10 /\ (1 <= 5)%nat /\ 0 <= (1 # 100) /\ 50 <= 200 /\
  map Qred (rd_T (finish (tdp_series 200 50 (1 # 100) (timevector 10 5)) [5; 5; 5; 5; 5] (1 # 50)))
  = [200; 785 # 4; 200; 785 # 4; 200].
Proof.
  split; [discriminate|]. split; [repeat constructor|]. split; [discriminate|]. split; [discriminate|].
  vm_compute. reflexivity.
Qed.

(* the example input lies inside the generated ranges: hypotheses of C05_accepted_inputs *)
Example C05_ex_in_ranges : in_ranges C05_ex_input /\ bi_Ts C05_ex_input < bi_Tmax C05_ex_input.
Proof.
  assert (le : forall a b, Qle_bool a b = true -> a <= b) by (intros a b; apply Qle_bool_iff).
  split; [|reflexivity]. split. right; right; left; reflexivity.
  split. split; apply le; reflexivity. split. split; apply le; reflexivity. split.
  - intros km H. injection H as <-. split; apply le; vm_compute; reflexivity.
  - intros v [H|[H|[]]]; injection H as <-; split; apply le; vm_compute; reflexivity.
Qed.

(* no Reservoir Depth line: the repaired reader walks 3000 m (15 + 0.05 x 3000 = 165 degC); the pinned one gave 15.15 *)
Example C05_ex_default_depth :
  input_ok default_depth_witness /\
  (exists T d, bht_of_input default_depth_witness = Good (T, d) /\ T == 165 /\ d == 3000) /\
  (exists T d, bht_of_input_pinned default_depth_witness = Good (T, d) /\ T == 1515 # 100).
Proof.
  split.
  - exact default_depth_witness_ok.
  - split; eexists; eexists; (split; [vm_compute; reflexivity|]); try split; vm_compute; reflexivity.
Qed.

(* the checkers accept a tiled history and reject one that rises inside a cycle *)
Example C05_ex_checkers :
  noninc_between 0 3 [100; 98; 95; 100; 98; 95; 100] = true /\ noninc_between 0 3 [100; 98; 99; 100] = false /\
  noninc_between 0 0 [100; 98; 95] = true /\ lhs_range_ok 0 100 40 [100; 70; 100; 40] = true /\
  lhs_range_ok 0 100 40 [100; 39] = false.
Proof. split; [|split; [|split; [|split]]]; vm_compute; reflexivity. Qed.

(* volume options on a concrete square-fracture reservoir: hypotheses of C05_volume_identity / option4 *)
Definition C05_ex_res (opt : Z) : res_inputs :=
  {| ri_shape := 3; ri_opt := opt; ri_area := 250000; ri_height := 600; ri_width := 500; ri_numb := 11; ri_sep := 50;
     ri_resvol := 125000000; ri_pi := 355 # 113; ri_sqrt := 564; ri_rho := 2700; ri_cp := 1000; ri_Tinj := 50; ri_gain := 2 |}.
Example C05_ex_volume :
  (exists s, geometry_of (C05_ex_res 1) = Good s /\ fs_vol s == 180000000 /\ fs_area s == 360000) /\
  (exists s, geometry_of (C05_ex_res 3) = Good s /\ fs_sep s == 3125 # 90) /\
  (exists s, geometry_of (C05_ex_res 4) = Good s /\ fs_vol s == 125000000) /\
  heat_content 125000000 2700 1000 200 52 == 4995 # 100.
Proof.
  split. eexists. split. vm_compute. reflexivity. split; vm_compute; reflexivity.
  split. eexists. split. vm_compute. reflexivity. vm_compute. reflexivity.
  split. eexists. split. vm_compute. reflexivity. vm_compute. reflexivity.
  vm_compute. reflexivity.
Qed.

(* a second call with an earlier count of 3 on a history that never falls below its limit: repaired 0, pinned 3 *)
Example C05_ex_second_call :
  index_of [100; 99; 98] (1 # 10) = 0%nat /\ rd_count (redrill_call 3 [100; 99; 98] [105; 104; 103] (1 # 10)) = 0%nat /\
  rd_count (redrill_call_pinned 3 [100; 99; 98] [105; 104; 103] (1 # 10)) = 3%nat.
Proof. repeat split. Qed.
