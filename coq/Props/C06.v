(* Props/C06.v - Results do not depend on the units in which inputs are written.
   The statements, each with the few lines that derive it from the lemmas of Proofs/.
   Vocabulary (Model/UnitAlg.v, Model/UnitReader.v, Proofs/UnitReaderProofs.v):
     punit        what a unit text means in the program's registry: base = fac * x + off
     convert u v  Quantity(x, u).to(v).magnitude
     tables       pint's parser, LookupUnits and forex_python's code list (any tables: the theorems are generic;
                  gen_tables is the instance regenerated from the live source on every run)
     read_param   ReadParameter on "x" / "x u";  echo_state: Outputs._convert_units for one input parameter
     denotes T cur v q   the pair (v, CurrentUnits = cur) denotes the quantity q (base units)
     restores T c o      LookupUnits recognises the long name pint reports for unit o and returns the text c *)
From Coq Require Import QArith List ZArith Bool String Ascii Lqa.
From Verif Require Import Base.Flat Model.UnitAlg Proofs.UnitAlgProofs Model.UnitReader Proofs.UnitReaderProofs
     Gen.UnitCatalogue Gen.UnitReference Proofs.UnitCatalogueProofs.
Import ListNotations.
Open Scope string_scope.
Open Scope Q_scope.

Theorem C06_affine_roundtrip : forall u v x,
  ~ pu_fac u == 0 -> ~ pu_fac v == 0 -> convert v u (convert u v x) == x.
Proof. exact convert_roundtrip. Qed.
Print Assumptions C06_affine_roundtrip.

Theorem C06_compose : forall u v w x,
  ~ pu_fac v == 0 -> ~ pu_fac w == 0 -> convert v w (convert u v x) == convert u w x.
Proof. intros u v w x Hv _. apply convert_compose. exact Hv. Qed.
Print Assumptions C06_compose.

(* a converted value denotes the same physical quantity (offsets included: degF, degC, K) *)
Theorem C06_conversion_denotes : forall u v x, ~ pu_fac v == 0 -> to_base v (convert u v x) == to_base u x.
Proof. exact convert_denote. Qed.
Print Assumptions C06_conversion_denotes.

(* LookupUnits only ever answers with a member of the catalogue, for every symbol table and recursion depth *)
Theorem C06_lookup_returns_catalogue_member : forall scan sym fuel s t c,
  lookup_units scan sym fuel s = LItem t c -> scan_find t scan = Some c.
Proof. exact lookup_units_item. Qed.
Print Assumptions C06_lookup_returns_catalogue_member.

(* ConvertUnits (pint branch), for EVERY registry table, unit text and value: if LookupUnits recognises the unit pint
   reports after the conversion (the "restore"), the value is the user's value converted, the remembered unit is the
   unit the value is held in, and the pair (value, CurrentUnits) denotes the quantity the user wrote. *)
Theorem C06_denotation_invariant : forall T c u x o n v cur',
  table_wf T ->
  t_parse T c = Some o -> t_parse T u = Some n -> ~ pu_fac o == 0 ->
  (pu_canon o = pu_canon n \/ restores T c o) ->
  convert_units_pint T (UEnum c) x u = ROk (v, cur') ->
  v == convert n o x /\ cur' = UEnum c /\ denotes T cur' v (to_base n x).
Proof. exact convert_units_pint_sound. Qed.
Print Assumptions C06_denotation_invariant.

(* FULL CLAUSE (refuted by the pinned reader, see C06_denotation_refuted / C06_total_refuted):
     forall T sp st x u, in_domain T (s_pref sp) u = true ->
       rres_equiv (read_param T sp st x (Some u)) (read_param T sp st (convert n o x) None).
   PROVED PART: the same under the restore hypothesis - writing "x u" has exactly the effect of writing the equivalent
   value in the unit the parameter is held in: same value, same remembered unit, same Provided flag, same error. *)
Theorem C06_any_unit_as_default_unit_partial : forall T sp st c u x y o n,
  table_wf T -> s_currency sp = false -> p_cur st = UEnum c ->
  t_parse T c = Some o -> t_parse T u = Some n -> ~ pu_fac o == 0 -> same_dim o n = true ->
  (pu_canon o = pu_canon n \/ (restores T c o /\ t_lookup T u <> LRaise)) ->
  y == convert n o x ->
  rres_equiv (read_param T sp st x (Some u)) (read_param T sp st y None).
Proof. exact read_any_unit_as_default. Qed.
Print Assumptions C06_any_unit_as_default_unit_partial.

Theorem C06_read_denotes_partial : forall T sp st c u x o n st',
  table_wf T -> s_currency sp = false -> s_kind sp = KFloat -> p_cur st = UEnum c ->
  t_parse T c = Some o -> t_parse T u = Some n -> ~ pu_fac o == 0 ->
  (pu_canon o = pu_canon n \/ restores T c o) ->
  read_param T sp st x (Some u) = ROk st' ->
  ~ convert n o x == p_value st ->
  p_value st' == convert n o x /\ p_cur st' = UEnum c /\ denotes T (p_cur st') (p_value st') (to_base n x).
Proof.
  intros T sp st c u x o n st' WF Hc Hk Hcur Po Pn Ho Hres H _.
  exact (read_denotes T sp st c u x o n st' WF Hc Hk Hcur Po Pn Ho Hres H).
Qed.
Print Assumptions C06_read_denotes_partial.

(* ConvertUnits (pint branch) does not raise when neither lookup raises (the range test of ReadParameter still can) *)
Theorem C06_read_total_partial : forall T c u x o n,
  t_parse T c = Some o -> t_parse T u = Some n -> same_dim o n = true ->
  (pu_canon o = pu_canon n \/ (t_lookup T u <> LRaise /\ t_lookup T (pu_canon o) <> LRaise)) ->
  exists r, convert_units_pint T (UEnum c) x u = ROk r.
Proof. exact convert_units_pint_total. Qed.
Print Assumptions C06_read_total_partial.

(* on the REGENERATED registry table: for a preferred unit and a unit written for which pair_good computes to true,
   every value.  The three catalogue hypotheses say where the harness takes (pref, u) from and are not used; sp and st are
   arbitrary but for p_cur st = UEnum pref. *)
Theorem C06_catalogue : forall name isint enum pref units u sp st x y,
  In (name, isint, false, enum, pref, UEnum pref) gen_params ->
  assoc_str enum gen_enums = Some units -> In u units ->
  pair_good gen_tables pref u = true ->
  s_currency sp = false -> p_cur st = UEnum pref ->
  exists o n, t_parse gen_tables pref = Some o /\ t_parse gen_tables u = Some n /\
    (y == convert n o x -> rres_equiv (read_param gen_tables sp st x (Some u)) (read_param gen_tables sp st y None)).
Proof.
  intros name isint enum pref units u sp st x y _ _ _ G Hc Hcur.
  exact (pair_good_reads gen_tables sp st pref u x y gen_tables_wf gen_tables_nonzero Hc Hcur G).
Qed.
Print Assumptions C06_catalogue.

Theorem C06_registry_table_wellformed : table_wf gen_tables.
Proof. exact gen_tables_wf. Qed.
Print Assumptions C06_registry_table_wellformed.

(* the regenerated registry table agrees (to 1e-9) with the FROZEN independent reference of what the catalogue units
   mean (spec/c06_unit_reference.json: international foot/inch/pound, Btu, and the units GEOPHIRES3_newunits.txt defines) *)
Theorem C06_reference_units_agree : forall e, In e ref_units -> ref_entry_ok (1 # 1000000000) gen_tables e = true.
Proof. apply forallb_forall. exact gen_reference_forallb. Qed.
Print Assumptions C06_reference_units_agree.

(* whatever quantity the state denotes, the pair printed after Outputs._convert_units denotes it too *)
Theorem C06_echo : forall T sp st q p,
  denotes T (p_cur st) (p_value st) q ->
  t_parse T (s_pref sp) = Some p -> ~ pu_fac p == 0 ->
  (forall c, parse_uref T (p_cur st) = Some c -> same_dim c p = true) ->
  exists st', echo_state T sp st = ROk st' /\ denotes T (p_cur st') (p_value st') q.
Proof.
  intros T sp st q p [c [Pc Hq]] Pp Hp Hd.
  destruct (units_match (s_pref sp) (p_cur st)) eqn:M.
  - exists st. unfold echo_state. rewrite M. split; [reflexivity|]. exists c. split; assumption.
  - rewrite (echo_state_back T sp st _ c p eq_refl M Pc Pp (Hd c Pc)). eexists. split; [reflexivity|].
    apply (denotes_enum T _ p _ _ Pp). cbn. rewrite convert_denote by exact Hp. exact Hq.
Qed.
Print Assumptions C06_echo.

(* 'Reservoir Depth' x1000 with CurrentUnits = METERS keeps the denotation (km -> m) *)
Theorem C06_depth_heuristic : forall T st km m q,
  t_parse T "kilometer" = Some km -> t_parse T "meter" = Some m ->
  pu_fac km == 1000 * pu_fac m -> pu_off km == pu_off m ->
  to_base km (p_value st) == q ->
  denotes T (p_cur (post_depth st)) (p_value (post_depth st)) q.
Proof.
  intros T st km m q Pk Pm F O H. apply (denotes_enum T "meter" m _ _ Pm). rewrite <- H.
  apply (to_base_scaled m km 1000 (p_value st)); [exact F|exact O|reflexivity].
Qed.
Print Assumptions C06_depth_heuristic.

(* ConvertUnitsBack and ConvertUnits are one affine map: ConvertUnitsBack applied to the user's own pair (x, u) gives the
   value ConvertUnits stores for the text "x u" (every table, unit, value) *)
Theorem C06_back_agrees_with_convert : forall T sp pref u x o n v c' b,
  table_wf T -> s_pref sp = pref ->
  t_parse T pref = Some o -> t_parse T u = Some n -> same_dim o n = true -> ~ pu_fac o == 0 ->
  convert_units_pint T (UEnum pref) x u = ROk (v, c') ->
  exists st', convert_units_back T sp (mkP x (UEnum u) b) = ROk st' /\ p_value st' == v /\ p_cur st' = UEnum pref.
Proof.
  intros T sp pref u x o n v c' b WF Hp Po Pn D Ho H. rewrite same_dim_sym in D.
  rewrite (convert_units_back_ok T sp (mkP x (UEnum u) b) pref n o Hp Pn Po D).
  eexists. split; [reflexivity|]. split; [|reflexivity].
  symmetry. exact (convert_units_pint_value T _ u x o n v c' WF Po Pn Ho H).
Qed.
Print Assumptions C06_back_agrees_with_convert.

(* round trip: a value re-expressed in any unit and put through ConvertUnitsBack is the value again *)
Theorem C06_back_roundtrip : forall T sp c v a p b,
  t_parse T (s_pref sp) = Some p -> t_parse T c = Some a -> same_dim a p = true ->
  ~ pu_fac a == 0 -> ~ pu_fac p == 0 ->
  exists st', convert_units_back T sp (mkP (convert p a v) (UEnum c) b) = ROk st' /\
              p_value st' == v /\ p_cur st' = UEnum (s_pref sp).
Proof.
  intros T sp c v a p b Pp Pa D Ha Hp. rewrite (convert_units_back_ok T sp (mkP _ (UEnum c) b) _ a p eq_refl Pa Pp D).
  eexists. split; [reflexivity|]. split; [|reflexivity]. apply convert_roundtrip; assumption.
Qed.
Print Assumptions C06_back_roundtrip.

(* well diameters ("> 2 must be inches"): the pair still denotes the diameter read, and the echo returns the inches read *)
Theorem C06_diameter_heuristic : forall T st i m,
  t_parse T "in" = Some i -> t_parse T "meter" = Some m ->
  pu_fac i == (254 # 10000) * pu_fac m -> pu_off i == 0 -> pu_off m == 0 ->
  p_cur st = UEnum "in" ->
  denotes T (p_cur (post_diameter st)) (p_value (post_diameter st)) (to_base i (p_value st)).
Proof.
  intros T st i m Pi Pm F Oi Om Hc. unfold post_diameter. destruct (Qltb 2 (p_value st)).
  - apply (denotes_enum T "meter" m _ _ Pm). apply (to_base_scaled m i (254 # 10000) (p_value st)); [exact F|lra|reflexivity].
  - rewrite Hc. apply (denotes_enum T "in" i _ _ Pi). reflexivity.
Qed.
Print Assumptions C06_diameter_heuristic.

Theorem C06_diameter_echo_roundtrip : forall T sp st i m,
  s_pref sp = "in" -> t_parse T "in" = Some i -> t_parse T "meter" = Some m -> same_dim m i = true ->
  pu_fac i == (254 # 10000) * pu_fac m -> pu_off i == 0 -> pu_off m == 0 -> ~ pu_fac m == 0 ->
  p_cur st = UEnum "in" ->
  exists st', echo_state T sp (post_diameter st) = ROk st' /\ p_value st' == p_value st /\ units_match "in" (p_cur st') = true.
Proof.
  intros T sp st i m Hp Pi Pm D F Oi Om Hm Hc. unfold post_diameter. destruct (Qltb 2 (p_value st)).
  - rewrite (echo_state_back T sp _ "in" m i Hp); [|reflexivity|assumption..]. eexists. split; [reflexivity|]. split; [|reflexivity].
    apply convert_scaled; [exact F|lra|discriminate|exact Hm].
  - exists st. unfold echo_state. rewrite Hp, Hc. cbn. repeat split; reflexivity.
Qed.
Print Assumptions C06_diameter_echo_roundtrip.

Theorem C06_depth_echo_roundtrip : forall T sp st km m,
  s_pref sp = "kilometer" -> t_parse T "kilometer" = Some km -> t_parse T "meter" = Some m -> same_dim m km = true ->
  pu_fac km == 1000 * pu_fac m -> pu_off km == 0 -> pu_off m == 0 -> ~ pu_fac m == 0 ->
  exists st', echo_state T sp (post_depth st) = ROk st' /\ p_value st' == p_value st /\ p_cur st' = UEnum "kilometer".
Proof.
  intros T sp st km m Hp Pk Pm D F Ok Om Hm.
  rewrite (echo_state_back T sp (post_depth st) "kilometer" m km Hp eq_refl Pm Pk D). eexists. split; [reflexivity|]. split; [|reflexivity].
  apply convert_scaled; [exact F|lra|discriminate|exact Hm].
Qed.
Print Assumptions C06_depth_echo_roundtrip.

(* Economics.Calculate's "depth > 500 -> / 1000, KILOMETERS": the pair keeps denoting the depth; read + x1000 + back is the
   number of kilometres that was read (for depths over 500 m) *)
Theorem C06_depth_back_heuristic : forall T st km m q,
  t_parse T "kilometer" = Some km -> t_parse T "meter" = Some m ->
  pu_fac km == 1000 * pu_fac m -> pu_off km == 0 -> pu_off m == 0 ->
  p_cur st = UEnum "meter" -> to_base m (p_value st) == q ->
  denotes T (p_cur (post_depth_back st)) (p_value (post_depth_back st)) q.
Proof.
  intros T st km m q Pk Pm F Ok Om Hc H. unfold post_depth_back. destruct (Qltb 500 (p_value st)).
  - apply (denotes_enum T "kilometer" km _ _ Pk). rewrite <- H. symmetry.
    apply (to_base_scaled m km 1000 (p_value st / 1000)); [exact F|lra|field].
  - rewrite Hc. apply (denotes_enum T "meter" m _ _ Pm). exact H.
Qed.
Print Assumptions C06_depth_back_heuristic.

Theorem C06_depth_there_and_back : forall st,
  Qltb 500 (p_value st * 1000) = true ->
  p_value (post_depth_back (post_depth st)) == p_value st /\ p_cur (post_depth_back (post_depth st)) = UEnum "kilometer".
Proof.
  intros st H. unfold post_depth_back, post_depth. cbn [p_value]. rewrite H. split; [cbn [p_value]; field|reflexivity].
Qed.
Print Assumptions C06_depth_there_and_back.

(* 'Reservoir Impedance' x 1000 keeps the unit: the stored pair is 1000 x the quantity read (NOT the quantity), and the
   report's "value / 1000" is exactly what undoes it *)
Theorem C06_impedance_heuristic : forall st,
  p_value (post_impedance st) / 1000 == p_value st /\ p_cur (post_impedance st) = p_cur st.
Proof. intros st. cbn. split; [field|reflexivity]. Qed.
Print Assumptions C06_impedance_heuristic.

Theorem C06_impedance_denotation_scaled : forall T st c,
  parse_uref T (p_cur st) = Some c -> pu_off c == 0 ->
  to_base c (p_value (post_impedance st)) == 1000 * to_base c (p_value st).
Proof. intros T st c _ O. unfold to_base. cbn [post_impedance p_value]. lra. Qed.
Print Assumptions C06_impedance_denotation_scaled.

(* one-line list parameters ("Gradients, 0.05 degC/m, ..."): a unit suffix on any element is never read - the call raises
   or the line is ignored; without suffixes the list is the numbers of the line *)
Theorem C06_list_line_units_never_read : forall T sp o x u raw r,
  existsb snd raw = true -> read_list_line T sp o x u raw = ROk r -> o_vals r = o_vals o.
Proof.
  intros T sp o x u raw r Hs H. unfold read_list_line in H.
  destruct (match u with None => _ | Some ut => _ end) as [[v cur]|]; [|discriminate].
  destruct (_ || _); [injection H as <-; reflexivity|]. rewrite Hs in H. discriminate.
Qed.
Print Assumptions C06_list_line_units_never_read.

Theorem C06_list_line_plain : forall T sp o x raw,
  existsb snd raw = false -> Qltb x (s_min sp) || Qltb (s_max sp) x = false ->
  read_list_line T sp o x None raw = ROk (mkO (map fst raw) (o_cur o) (o_pref o)).
Proof. intros T sp o x raw Hs Hr. unfold read_list_line. rewrite Hr, Hs. reflexivity. Qed.
Print Assumptions C06_list_line_plain.

(* a requested output unit: every element of the series (any length) is converted, the label is the requested unit *)
Theorem C06_output_requested : forall T o c nu ncur a b,
  o_cur o = UEnum c -> String.eqb nu c = false ->
  t_parse T c = Some a -> t_parse T nu = Some b -> same_dim a b = true ->
  output_step T (Some (LItem nu ncur)) o = ROk (mkO (map (convert a b) (o_vals o)) (UEnum nu) (o_pref o)).
Proof.
  intros T o c nu ncur a b Hc Hne Pa Pb D. unfold output_step, convert_output_units. rewrite Hc. cbn [units_match].
  rewrite Hne, Pa, Pb, D. reflexivity.
Qed.
Print Assumptions C06_output_requested.

(* ... each element denotes the same quantity and, for offset-free units, is the old value times the exact factor *)
Theorem C06_output_factor : forall a b l i,
  (i < List.length l)%nat -> ~ pu_fac b == 0 ->
  to_base b (nth i (map (convert a b) l) 0) == to_base a (nth i l 0) /\
  (linear a = true -> linear b = true -> nth i (map (convert a b) l) 0 == nth i l 0 * conv_factor a b).
Proof. exact output_factor. Qed.
Print Assumptions C06_output_factor.

(* ... and nothing else changes: outputs that were not requested (and are in their preferred unit) are untouched,
   keys and order of the dictionary are preserved - for every dictionary *)
Theorem C06_output_others_untouched : forall T reqs outs r k o,
  convert_outputs T reqs outs = ROk r -> In (k, o) outs ->
  assoc_str k reqs = None -> units_match (o_pref o) (o_cur o) = true -> In (k, o) r.
Proof.
  intros T reqs. induction outs as [|[k0 o0] rest IH]; intros r k o H Hin Hreq Hm; [destruct Hin|].
  destruct (convert_outputs_cons T reqs k0 o0 rest r H) as (o' & r' & Hs & Hr & ->).
  destruct Hin as [[= -> ->]|Hin]; [left|right; exact (IH r' k o Hr Hin Hreq Hm)].
  unfold output_step in Hs. rewrite Hreq, Hm in Hs. injection Hs as <-. reflexivity.
Qed.
Print Assumptions C06_output_others_untouched.

Theorem C06_output_keys : forall T reqs outs r,
  convert_outputs T reqs outs = ROk r -> map fst r = map fst outs.
Proof.
  intros T reqs. induction outs as [|[k o] rest IH]; intros r H; [injection H as <-; reflexivity|].
  destruct (convert_outputs_cons T reqs k o rest r H) as (o' & r' & _ & Hr & ->). cbn. f_equal. exact (IH r' Hr).
Qed.
Print Assumptions C06_output_keys.

(* what the faithful model of the PINNED reader refutes: witnesses on the registry fragment pin_tables of Model/UnitReader.v *)

(* FULL CLAUSE: forall x u st', in_domain -> read "x u" = ROk st' -> denotes (p_cur st') (p_value st') (to_base n x).
   REFUTED: "Injection Temperature, 122 degF" is held as 50 but remembered as degF. *)
Theorem C06_denotation_refuted :
  exists x u n st' c',
    in_domain pin_tables (s_pref spec_temperature) u = true /\ t_parse pin_tables u = Some n /\
    read_param pin_tables spec_temperature st_temperature x (Some u) = ROk st' /\
    parse_uref pin_tables (p_cur st') = Some c' /\
    p_value st' == convert n pin_degC x /\
    ~ to_base c' (p_value st') == to_base n x.
Proof.
  exists 122, "degF", pin_degF, (mkP (convert pin_degF pin_degC 122) (UEnum "degF") true), pin_degF.
  split; [reflexivity|]. split; [reflexivity|]. split; [apply witness_122_degF|]. vm_compute. repeat split. discriminate.
Qed.
Print Assumptions C06_denotation_refuted.

(* ... and the report echoes 10 degC for it *)
Theorem C06_echo_refuted :
  exists st st',
    read_param pin_tables spec_temperature st_temperature 122 (Some "degF") = ROk st /\
    echo_state pin_tables spec_temperature st = ROk st' /\
    p_cur st' = UEnum "degC" /\ p_value st' == 10 /\ convert pin_degF pin_degC 122 == 50.
Proof.
  destruct witness_122_degF as [R V]. eexists. eexists. split; [exact R|]. split; [vm_compute; reflexivity|].
  split; [reflexivity|]. split; [vm_compute; reflexivity|exact V].
Qed.
Print Assumptions C06_echo_refuted.

(* FULL CLAUSE: in_domain -> the reader does not raise.  REFUTED: "Fracture Area, 5000 cm**2" *)
Theorem C06_total_refuted :
  exists x u, in_domain pin_tables (s_pref spec_area) u = true /\
    read_param pin_tables spec_area (mkP 250000 (UEnum "m**2") false) x (Some u) = RErr E_UNDEF.
Proof. exists 5000, "cm**2". vm_compute. split; reflexivity. Qed.
Print Assumptions C06_total_refuted.

(* FULL CLAUSE: the value read is convert u pref x.  REFUTED for the currency-prefix branch: "0.005 KUSD" -> 5 MUSD *)
Theorem C06_currency_prefix_refuted :
  exists x st' k m,
    t_parse pin_tables "KUSD" = Some k /\ t_parse pin_tables "MUSD" = Some m /\
    read_param pin_tables spec_cost (mkP (-1) (UEnum "MUSD") false) x (Some "KUSD") = ROk st' /\
    p_value st' == x * 1000 /\ convert k m x == x / 1000 /\ ~ p_value st' == convert k m x.
Proof.
  exists (5 # 1000). eexists. eexists. eexists.
  split; [vm_compute; reflexivity|]. split; [vm_compute; reflexivity|]. split; [vm_compute; reflexivity|].
  vm_compute. repeat split. discriminate.
Qed.
Print Assumptions C06_currency_prefix_refuted.

(* PROVED PART of the currency branch: the preferred unit written explicitly leaves the value alone *)
Theorem C06_currency_same_unit_partial : forall T pref x, convert_units_currency T pref x pref = ROk (x, UStr pref).
Proof. intros T pref x. unfold convert_units_currency. rewrite String.eqb_refl. reflexivity. Qed.
Print Assumptions C06_currency_same_unit_partial.

(* non-vacuity: the hypotheses are met on the regenerated tables *)

Example C06_restore_happens_for_lengths_and_pressures :
  pair_good gen_tables "meter" "ft" = true /\ pair_good gen_tables "kilometer" "mile" = true /\
  pair_good gen_tables "in" "meter" = true /\ pair_good gen_tables "kPa" "psi" = true /\ pair_good gen_tables "kPa" "bar" = true.
Proof. vm_compute. repeat split. Qed.

Example C06_denotation_invariant_nonvacuous :
  exists o n v, t_parse gen_tables "meter" = Some o /\ t_parse gen_tables "ft" = Some n /\ restores gen_tables "meter" o /\
    convert_units_pint gen_tables (UEnum "meter") 100 "ft" = ROk (v, UEnum "meter") /\ v == 3048 # 100.
Proof.
  eexists. eexists. eexists. split; [vm_compute; reflexivity|]. split; [vm_compute; reflexivity|].
  split; [eexists; vm_compute; reflexivity|]. split; vm_compute; reflexivity.
Qed.

Example C06_catalogue_nonvacuous :
  nth_error gen_params (param_index "Reservoir Depth" gen_params)
    = Some ("Reservoir Depth", false, false, "LengthUnit", "kilometer", UEnum "kilometer") /\
  (exists units, assoc_str "LengthUnit" gen_enums = Some units /\ existsb (String.eqb "ft") units = true) /\
  pair_good gen_tables "kilometer" "ft" = true.
Proof.
  split; [vm_compute; reflexivity|]. split; [eexists; split; vm_compute; reflexivity|vm_compute; reflexivity].
Qed.

Example C06_echo_nonvacuous :
  exists st', echo_state gen_tables (mkS KFloat false "in" 1 30 8 []) (mkP (2 # 10) (UEnum "meter") true) = ROk st' /\
              p_cur st' = UEnum "in" /\ p_value st' == 2000 # 254.
Proof. eexists. split; [vm_compute; reflexivity|]. vm_compute. split; reflexivity. Qed.

Example C06_output_nonvacuous :
  exists r, output_step gen_tables (Some (t_lookup gen_tables "degF")) (mkO [170; 100] (UEnum "degC") "degC") = ROk r /\
            o_cur r = UEnum "degF" /\ nth 0 (o_vals r) 0 == 338 /\ nth 1 (o_vals r) 0 == 212.
Proof. eexists. split; [vm_compute; reflexivity|]. vm_compute. repeat split. Qed.

Example C06_depth_heuristic_nonvacuous :
  exists km m, t_parse gen_tables "kilometer" = Some km /\ t_parse gen_tables "meter" = Some m /\
               pu_fac km == 1000 * pu_fac m /\ pu_off km == pu_off m.
Proof. eexists. eexists. split; [vm_compute; reflexivity|]. split; [vm_compute; reflexivity|]. vm_compute. split; reflexivity. Qed.

Example C06_reference_nonvacuous :
  existsb (fun e => String.eqb (fst (fst (fst e))) "USD/MMBTU") ref_units = true /\
  existsb (fun e => String.eqb (fst (fst (fst e))) "cents/kWh") ref_units = true /\ Nat.leb 80 (List.length ref_units) = true.
Proof. vm_compute. repeat split. Qed.

Example C06_heuristics_nonvacuous :
  exists i m km, t_parse gen_tables "in" = Some i /\ t_parse gen_tables "meter" = Some m /\ t_parse gen_tables "kilometer" = Some km /\
    pu_fac i == (254 # 10000) * pu_fac m /\ pu_off i == 0 /\ pu_off m == 0 /\ same_dim m i = true /\ same_dim m km = true /\
    p_value (post_diameter (mkP (85 # 10) (UEnum "in") true)) == 2159 # 10000 /\
    p_value (post_diameter (mkP (15 # 10) (UEnum "in") true)) == 15 # 10 /\
    Qltb 500 (p_value (mkP 3 (UEnum "kilometer") true) * 1000) = true.
Proof.
  eexists. eexists. eexists. split; [vm_compute; reflexivity|]. split; [vm_compute; reflexivity|]. split; [vm_compute; reflexivity|].
  vm_compute. repeat split.
Qed.

Example C06_back_roundtrip_nonvacuous :
  exists st', convert_units_back gen_tables (mkS KFloat false "degC" 0 200 70 []) (mkP 122 (UEnum "degF") true) = ROk st' /\
              p_value st' == 50 /\ p_cur st' = UEnum "degC".
Proof. eexists. split; [vm_compute; reflexivity|]. vm_compute. split; reflexivity. Qed.

Example C06_list_line_nonvacuous :
  read_list_line gen_tables (mkS KFloat false "degC/km" 0 500 0 []) (mkO [5 # 100; 0] (UEnum "degC/m") "degC/km") (5 # 100)
                 (Some "degC/m") [(5 # 100, true); (4 # 100, true)] = RErr E_FLOAT /\
  read_list_line gen_tables (mkS KFloat false "degC/km" 0 500 0 []) (mkO [5 # 100; 0] (UEnum "degC/m") "degC/km") 50
                 None [(50, false); (40, false)] = ROk (mkO [50; 40] (UEnum "degC/m") "degC/km").
Proof. vm_compute. split; reflexivity. Qed.
