(* Props/C08.v - A run is a pure function of its input; runs do not contaminate each other.
   The statements, each with a short derivation from the lemmas of Proofs/ProcessProofs.v and Proofs/MemoProofs.v
   (the two per-step checkers are proved sound where they are stated).
   Model: Model/Process.v (cwd, argv, files, clients with their path-keyed cache; GEOPHIRESv3.main, the client,
   the command-line entry point) and Model/Memo.v (functools.lru_cache).  [run : C -> option R] is the
   simulation on a file content (None = it raises), [hash] is hash(file path); both arbitrary.
   A history is any list of operations (requests through any client, file writes/deletes, chdir, argv
   assignments, new clients with caching on or off, command-line runs), of any length, from any state. *)
From Coq Require Import List ZArith NArith Bool Arith String.
From Verif Require Import Model.Process Model.Memo Gen.C08MemoTable Gen.C08StateTable Proofs.ProcessProofs Proofs.MemoProofs.
Import ListNotations.

(* RESTORE, current GEOPHIRES client (restore in `finally`) and the HIP-RA-X / HIP-RA clients: after EVERY request -
   served from the cache, run successfully, or failed - cwd and argv are what they were before it; for every
   history, every starting state, any path resolution. *)
Theorem C08_restore :
  forall (C R : Type) (run : C -> option R) (hash : nat -> Z) (resolve : dir -> nat -> nat) (opendir : dir -> dir -> dir)
         (runh : nat -> C -> option R)
         (K : Type) (keq : K -> K -> bool) (keyof : nat -> option C -> K) (ops : list (op C)) (st : state C R K),
  Forall (fun e => is_client_run C (eop e) = true ->
                   cwd (after e) = cwd (before e) /\ argv (after e) = argv (before e))
         (trace C R run hash resolve opendir runh K keq keyof true st ops).
Proof. intros. apply trace_Forall. intros st0 o Ho. apply step_restore. now destruct o. Qed.
Print Assumptions C08_restore.

(* hence a whole history of requests, file edits and new clients ends where it started *)
Theorem C08_restore_history :
  forall (C R : Type) (run : C -> option R) (hash : nat -> Z) (resolve : dir -> nat -> nat) (opendir : dir -> dir -> dir)
         (runh : nat -> C -> option R)
         (K : Type) (keq : K -> K -> bool) (keyof : nat -> option C -> K) (ops : list (op C)) (st : state C R K),
  forallb (only_runs_and_files C) ops = true ->
  cwd (final C R run hash resolve opendir runh K keq keyof true st ops) = cwd st
  /\ argv (final C R run hash resolve opendir runh K keq keyof true st ops) = argv st.
Proof.
  intros until ops. unfold final. induction ops as [|o ops IH]; intros st H; simpl in *; [auto|].
  apply andb_true_iff in H as [Ho H].
  destruct (step_restore C R run hash resolve opendir runh K keq keyof st o Ho) as [E1 E2]. simpl in E1, E2.
  rewrite <- E1, <- E2. exact (IH _ H).
Qed.
Print Assumptions C08_restore_history.

(* The client of the PINNED tree (restore only after a successful run) refutes the clause: one failing request
   leaves the caller in the source directory with sys.argv = ['', <input>, <output>]. *)
Theorem C08_restore_pinned_refuted :
  exists e, In e (ptrace (plain_cfg [0]) false (DUser 0) [AUser 0; AUser 1] [NewClient true; Get 0 7])
            /\ is_get (eop e) = true
            /\ cwd (after e) = DSrc /\ cwd (before e) = DUser 0
            /\ argv (after e) = [AEmpty; AIn 7; AOut 7%Z] /\ argv (before e) = [AUser 0; AUser 1].
Proof. eexists. split; [exact (nth_error_In _ _ pinned_fail_event)|repeat split]. Qed.
Print Assumptions C08_restore_pinned_refuted.

(* what the pinned client does guarantee: restore after every request that does not raise *)
Theorem C08_restore_pinned_partial :
  forall (C R : Type) (run : C -> option R) (hash : nat -> Z) (resolve : dir -> nat -> nat) (opendir : dir -> dir -> dir)
         (runh : nat -> C -> option R)
         (K : Type) (keq : K -> K -> bool) (keyof : nat -> option C -> K) (ops : list (op C)) (st : state C R K),
  Forall (fun e => is_get (eop e) = true -> eout e <> Raised ->
                   cwd (after e) = cwd (before e) /\ argv (after e) = argv (before e))
         (trace C R run hash resolve opendir runh K keq keyof false st ops).
Proof. intros. apply trace_Forall. apply step_restore_pinned. Qed.
Print Assumptions C08_restore_pinned_partial.

(* HIP-RA-X / HIP-RA clients (no cache, restore in `finally`): a request leaves the WHOLE state as it was *)
Theorem C08_hip_frame :
  forall (C R : Type) (run : C -> option R) (hash : nat -> Z) (resolve : dir -> nat -> nat) (opendir : dir -> dir -> dir)
         (runh : nat -> C -> option R)
         (K : Type) (keq : K -> K -> bool) (keyof : nat -> option C -> K) (fixed : bool) (ops : list (op C)) (st : state C R K),
  Forall (fun e => forall k p, eop e = HipGet k p -> after e = before e) (trace C R run hash resolve opendir runh K keq keyof fixed st ops).
Proof. intros. apply trace_Forall. intros st0 o. apply step_hip_frame. Qed.
Print Assumptions C08_hip_frame.

(* command-line entry point (restore in `finally`): cwd is given back whether main() returns or raises, and the
   argument list it was started with is still in place *)
Theorem C08_cli_restore :
  forall (C R : Type) (run : C -> option R) (hash : nat -> Z) (resolve : dir -> nat -> nat) (opendir : dir -> dir -> dir)
         (runh : nat -> C -> option R)
         (K : Type) (keq : K -> K -> bool) (keyof : nat -> option C -> K) (fixed : bool) (ops : list (op C)) (st : state C R K),
  Forall (fun e => forall p, eop e = Cli p ->
                   cwd (after e) = cwd (before e) /\ argv (after e) = [AUser 0; AIn p; AOut (hash p)])
         (trace C R run hash resolve opendir runh K keq keyof fixed st ops).
Proof. intros. apply trace_Forall. intros st0 o. apply step_cli_restore. Qed.
Print Assumptions C08_cli_restore.

(* MONTE-CARLO WORK PACKAGE embedded in the process (any number of iterations, from ANY state - other clients with
   anything cached, any files, any cwd/argv): every iteration writes its input file p (absolute), asks a NEW client,
   deletes the file.  At the end cwd and argv are unchanged, the clients that existed before are untouched, and the
   results of the embedded requests are, in order, the run of the iteration content (a failure when it does not run) *)
Theorem C08_mc_package :
  forall (C R : Type) (run : C -> option R) (hash : nat -> Z) (resolve : dir -> nat -> nat) (opendir : dir -> dir -> dir)
         (runh : nat -> C -> option R)
         (K : Type) (keq : K -> K -> bool) (keyof : nat -> option C -> K) (ps : list nat) (st : state C R K) (c : C),
  (forall p, In p ps -> forall d, resolve d p = p) ->
  let st' := final C R run hash resolve opendir runh K keq keyof true st (mc_package (List.length (clients st)) ps c) in
  cwd st' = cwd st /\ argv st' = argv st
  /\ firstn (List.length (clients st)) (clients st') = clients st
  /\ filter (fun o => match o with Done => false | _ => true end)
            (map (@eout C R K) (trace C R run hash resolve opendir runh K keq keyof true st (mc_package (List.length (clients st)) ps c)))
     = repeat (match run c with Some r => Returned r false | None => Raised end) (List.length ps).
Proof.
  intros until c. intros Ha.
  destruct (mc_package_spec C R run hash resolve opendir runh K keq keyof ps st c Ha) as (E1 & E2 & [new E3] & E4).
  repeat split; [exact E1|exact E2| |exact E4].
  rewrite E3, firstn_app, firstn_all, Nat.sub_diag. apply app_nil_r.
Qed.
Print Assumptions C08_mc_package.

(* NO CONTAMINATION in the model: a request changes nothing but the cache of the client it went through *)
Theorem C08_get_frame :
  forall (C R : Type) (run : C -> option R) (hash : nat -> Z) (resolve : dir -> nat -> nat) (opendir : dir -> dir -> dir)
         (K : Type) (keq : K -> K -> bool) (keyof : nat -> option C -> K) (st : state C R K) (ci p : nat),
  let st' := fst (client_get C R run hash resolve opendir K keq keyof true st ci p) in
  cwd st' = cwd st /\ argv st' = argv st /\ files st' = files st
  /\ List.length (clients st') = List.length (clients st)
  /\ forall j, j <> ci -> nth_error (clients st') j = nth_error (clients st) j.
Proof. exact get_frame. Qed.
Print Assumptions C08_get_frame.

(* REFINEMENT clause "a client never returns a result computed from input content different from the request":
   the request is the file its path names FOR THE CALLER at request time.  The current clients open the request
   path in the caller's directory ([caller_opendir]; repaired by fa4a753).
   REFUTED by the path-keyed cache, for the pinned and the current client alike:
   (1) write c0, request, write c1, request again on the same caching client -> the run of c0 comes back although
       the file holds c1; *)
Theorem C08_cache_refines_run_refuted :
  forall fixed, exists e p r h,
    In e (ptrace (plain_cfg [0; 1]) fixed (DUser 0) [] [NewClient true; Write 0 0; Get 0 0; Write 0 1; Get 0 0])
    /\ eop e = Get 0 p /\ eout e = Returned r h
    /\ expected nat nat (crun [0; 1]) (files (before e)) p = Some 1 /\ r = 0.
Proof.
  intros fixed. eexists. exists 0, 0, true. split; [exact (nth_error_In _ _ (stale_hit fixed))|repeat split].
Qed.
Print Assumptions C08_cache_refines_run_refuted.

(* (2) the key is the path AS GIVEN: the same RELATIVE name (100 = file 60 in directory 0, file 61 in directory 1)
       requested from two directories through one caching client is served from the cache in the second one. *)
Theorem C08_cache_relative_shared_refuted :
  forall fixed, exists e r h,
    In e (ptrace rel2_cfg fixed (DUser 0) [] [NewClient true; Write 60 0; Write 61 1; Get 0 100; Chdir (DUser 1); Get 0 100])
    /\ eop e = Get 0 100 /\ eout e = Returned r h /\ cwd (before e) = DUser 1
    /\ expected nat nat (crun [0; 1]) (files (before e)) (cresolve (g_rt rel2_cfg) (cwd (before e)) 100) = Some 1
    /\ r = 0.
Proof.
  intros fixed. eexists. exists 0, true. split; [exact (nth_error_In _ _ (rel_shared_hit fixed))|repeat split].
Qed.
Print Assumptions C08_cache_relative_shared_refuted.

(* The clients of the PINNED tree (path passed on as given, main() chdirs to the program directory before opening it:
   [pinned_opendir]) refuted the clause even with caching off: the caller in directory 0 asks for name 100 (its
   file 60, content 0) and gets the run of the source directory's file 90 (content 1) - or a failure when no such
   file exists there. *)
Theorem C08_relative_request_refuted :
  forall fixed, exists e r h,
    In e (ptrace_with pinned_opendir rel_cfg fixed (DUser 0) [] [NewClient false; Write 60 0; Get 0 100])
    /\ eop e = Get 0 100 /\ eout e = Returned r h
    /\ expected nat nat (crun [0; 1]) (files (before e)) (cresolve (g_rt rel_cfg) (cwd (before e)) 100) = Some 0
    /\ r = 1.
Proof.
  intros fixed. eexists. exists 1, false. split; [exact (nth_error_In _ _ (rel_pinned_event fixed))|repeat split].
Qed.
Print Assumptions C08_relative_request_refuted.

(* PROVED for the current clients under the hypotheses the path-keyed cache needs: hash is injective on the requested
   paths [ps], they name the same file from every directory (true of absolute paths), and no file is written or
   deleted while a caching client holds a result under the key of a path naming it.  Then, for every history, every
   result returned (by a GEOPHIRES client, a HIP-RA client or the command line) is the run of the content the
   requested file has at request time. *)
Theorem C08_cache_refines_run_partial :
  forall (C R : Type) (run : C -> option R) (hash : nat -> Z) (resolve : dir -> nat -> nat) (runh : nat -> C -> option R) (ps : list nat) (fixed : bool),
  (forall p q, In p ps -> In q ps -> hash p = hash q -> p = q) ->
  (forall p, In p ps -> forall d, resolve d p = resolve DSrc p) ->
  forall (ops : list (op C)) (d : dir) (a : list arg) (f : fs C),
  (forall ci p, In (Get ci p) ops -> In p ps) ->
  Forall (fun e => forall w, wpath C (eop e) = Some w -> forall p, resolve DSrc p = w ->
                   forall cl, In cl (clients (before e)) -> caching cl = true ->
                   cache_lookup Z.eqb (hash p) (cache cl) = None)
         (trace C R run hash resolve caller_opendir runh Z Z.eqb (path_key hash) fixed (init d a f) ops) ->
  Forall (fun e => forall orc p r h, request C R run runh (eop e) = Some (orc, p) -> eout e = Returned r h ->
                   expected_with C R orc (files (before e)) (resolve (cwd (before e)) p) = Some r)
         (trace C R run hash resolve caller_opendir runh Z Z.eqb (path_key hash) fixed (init d a f) ops).
Proof. intros. apply (trace_refines_path_key C R run hash resolve runh ps); auto. apply init_fresh. Qed.
Print Assumptions C08_cache_refines_run_partial.

(* with caching off the clause holds for the current clients with NO hypothesis: any hash, any paths (relative
   ones from changing directories included), files rewritten at will *)
Theorem C08_nocache_refines_run :
  forall (C R : Type) (run : C -> option R) (hash : nat -> Z) (resolve : dir -> nat -> nat) (runh : nat -> C -> option R)
         (K : Type) (keq : K -> K -> bool) (keyof : nat -> option C -> K) (fixed : bool) (ops : list (op C)) (st : state C R K),
  (forall cl, In cl (clients st) -> caching cl = false) ->
  (forall b, In (NewClient b) ops -> b = false) ->
  Forall (fun e => forall orc p r h, request C R run runh (eop e) = Some (orc, p) -> eout e = Returned r h ->
                   expected_with C R orc (files (before e)) (resolve (cwd (before e)) p) = Some r)
         (trace C R run hash resolve caller_opendir runh K keq keyof fixed st ops).
Proof. intros. apply trace_refines_nocache; auto. now apply resolves_same_all. Qed.
Print Assumptions C08_nocache_refines_run.

(* the same with the clients of the pinned tree, or any other way of opening the path ([opendir] arbitrary), needs the
   path hypothesis "the request path names the same file for the caller and for the program" ... *)
Theorem C08_nocache_refines_run_any_opendir :
  forall (C R : Type) (run : C -> option R) (hash : nat -> Z) (resolve : dir -> nat -> nat) (opendir : dir -> dir -> dir)
         (runh : nat -> C -> option R)
         (K : Type) (keq : K -> K -> bool) (keyof : nat -> option C -> K) (fixed : bool) (ops : list (op C)) (st : state C R K),
  (forall cl, In cl (clients st) -> caching cl = false) ->
  (forall b, In (NewClient b) ops -> b = false) ->
  Forall (fun e => (forall ci p, eop e = Get ci p -> resolve (cwd (before e)) p = resolve (opendir DSrc (cwd (before e))) p)
                   /\ (forall k p, eop e = HipGet k p -> resolve (cwd (before e)) p = resolve (opendir (DPkg k) (cwd (before e))) p))
         (trace C R run hash resolve opendir runh K keq keyof fixed st ops) ->
  Forall (fun e => forall orc p r h, request C R run runh (eop e) = Some (orc, p) -> eout e = Returned r h ->
                   expected_with C R orc (files (before e)) (resolve (cwd (before e)) p) = Some r)
         (trace C R run hash resolve opendir runh K keq keyof fixed st ops).
Proof. exact trace_refines_nocache. Qed.
Print Assumptions C08_nocache_refines_run_any_opendir.

(* ... which absolute paths satisfy in every history, whatever the clients do *)
Theorem C08_absolute_paths_resolve_same :
  forall (C R : Type) (run : C -> option R) (hash : nat -> Z) (resolve : dir -> nat -> nat) (opendir : dir -> dir -> dir)
         (runh : nat -> C -> option R)
         (K : Type) (keq : K -> K -> bool) (keyof : nat -> option C -> K) (fixed : bool),
  (forall d p, resolve d p = p) -> forall (ops : list (op C)) (st : state C R K),
  Forall (fun e => (forall ci p, eop e = Get ci p -> resolve (cwd (before e)) p = resolve (opendir DSrc (cwd (before e))) p)
                   /\ (forall k p, eop e = HipGet k p -> resolve (cwd (before e)) p = resolve (opendir (DPkg k) (cwd (before e))) p))
         (trace C R run hash resolve opendir runh K keq keyof fixed st ops).
Proof. intros. apply resolves_same_all. intros. now rewrite !H. Qed.
Print Assumptions C08_absolute_paths_resolve_same.

(* ... and which opening the path in the caller's directory (the repair fa4a753) satisfies for any paths *)
Theorem C08_caller_dir_resolves_same :
  forall (C R : Type) (run : C -> option R) (hash : nat -> Z) (resolve : dir -> nat -> nat) (opendir : dir -> dir -> dir)
         (runh : nat -> C -> option R)
         (K : Type) (keq : K -> K -> bool) (keyof : nat -> option C -> K) (fixed : bool),
  (forall pkg d, opendir pkg d = d) -> forall (ops : list (op C)) (st : state C R K),
  Forall (fun e => (forall ci p, eop e = Get ci p -> resolve (cwd (before e)) p = resolve (opendir DSrc (cwd (before e))) p)
                   /\ (forall k p, eop e = HipGet k p -> resolve (cwd (before e)) p = resolve (opendir (DPkg k) (cwd (before e))) p))
         (trace C R run hash resolve opendir runh K keq keyof fixed st ops).
Proof. intros. apply resolves_same_all. intros. now rewrite H. Qed.
Print Assumptions C08_caller_dir_resolves_same.

(* THE REPAIR of the cache: a key that determines the run - e.g. the path hash TOGETHER WITH the content of the
   file at request time - satisfies the clause for every history of the current clients with no further hypothesis:
   files rewritten at will, any hash, relative paths from changing directories *)
Theorem C08_sound_key_refines_run :
  forall (C R : Type) (run : C -> option R) (hash : nat -> Z) (resolve : dir -> nat -> nat) (runh : nat -> C -> option R)
         (K : Type) (keq : K -> K -> bool) (keyof : nat -> option C -> K) (fixed : bool),
  (forall p c p' c', keq (keyof p c) (keyof p' c') = true ->
                     match c with Some x => run x | None => None end = match c' with Some x => run x | None => None end) ->
  forall (ops : list (op C)) (d : dir) (a : list arg) (f : fs C),
  Forall (fun e => forall orc p r h, request C R run runh (eop e) = Some (orc, p) -> eout e = Returned r h ->
                   expected_with C R orc (files (before e)) (resolve (cwd (before e)) p) = Some r)
         (trace C R run hash resolve caller_opendir runh K keq keyof fixed (init d a f) ops).
Proof.
  intros. apply trace_refines_sound_key; [assumption|apply init_entries_ok|now apply resolves_same_all].
Qed.
Print Assumptions C08_sound_key_refines_run.

Theorem C08_content_key_refines_run :
  forall (C R : Type) (run : C -> option R) (hash : nat -> Z) (resolve : dir -> nat -> nat) (runh : nat -> C -> option R) (ceq : C -> C -> bool) (fixed : bool),
  (forall a b, ceq a b = true -> a = b) ->
  forall (ops : list (op C)) (d : dir) (a : list arg) (f : fs C),
  Forall (fun e => forall orc p r h, request C R run runh (eop e) = Some (orc, p) -> eout e = Returned r h ->
                   expected_with C R orc (files (before e)) (resolve (cwd (before e)) p) = Some r)
         (trace C R run hash resolve caller_opendir runh (Z * option C) (content_keq ceq) (content_key hash) fixed (init d a f) ops).
Proof. intros. apply C08_sound_key_refines_run. now apply content_key_sound. Qed.
Print Assumptions C08_content_key_refines_run.

(* PURE FUNCTION OF THE INPUT: two requests to the same program, anywhere in any two safe histories (different
   lengths, clients, working directories, argv, other files), whose files hold the same content return the same
   result. *)
Theorem C08_result_function_of_content :
  forall (C R : Type) (run : C -> option R) (hash : nat -> Z) (resolve : dir -> nat -> nat) (runh : nat -> C -> option R) fixed1 fixed2 ps1 ps2 (st1 st2 : state C R Z) ops1 ops2
         e1 e2 orc p1 p2 r1 r2 h1 h2,
  safe_history C R run hash resolve runh fixed1 ps1 st1 ops1 -> safe_history C R run hash resolve runh fixed2 ps2 st2 ops2 ->
  In e1 (trace C R run hash resolve caller_opendir runh Z Z.eqb (path_key hash) fixed1 st1 ops1) -> In e2 (trace C R run hash resolve caller_opendir runh Z Z.eqb (path_key hash) fixed2 st2 ops2) ->
  request C R run runh (eop e1) = Some (orc, p1) -> request C R run runh (eop e2) = Some (orc, p2) ->
  eout e1 = Returned r1 h1 -> eout e2 = Returned r2 h2 ->
  fs_lookup (resolve (cwd (before e1)) p1) (files (before e1))
    = fs_lookup (resolve (cwd (before e2)) p2) (files (before e2)) ->
  r1 = r2.
Proof.
  intros until h2. intros H1 H2 In1 In2.
  eapply refines_function_of_content; eauto using safe_history_refines.
Qed.
Print Assumptions C08_result_function_of_content.

(* MEMO TABLES (functools.lru_cache), any maxsize, any sequence of calls: memoising a function that does not
   distinguish arguments Python's key equality identifies returns exactly what the function returns. *)
Theorem C08_memo_pure :
  forall (K V : Type) (keq : K -> K -> bool) (f : K -> V) (m : option nat) (xs : list K),
  (forall a b, keq a b = true -> f a = f b) ->
  map fst (fst (memo_calls keq f m [] xs)) = map f xs.
Proof. intros * Hr. apply memo_calls_pure; [exact Hr|intros k v []]. Qed.
Print Assumptions C08_memo_pure.

(* identity-keyed tables (Reservoir.Calculate(self, model)): objects with pairwise distinct identities never hit,
   so each call runs the body on its own object's state - even though the body is not a function of the key *)
Theorem C08_identity_memo_never_hits :
  forall (S V : Type) (body : S -> V) (m : option nat) (calls : list (nat * S)),
  NoDup (map fst calls) -> id_calls body m calls = map (fun c => (body (snd c), false)) calls.
Proof. intros * H. apply memo_calls_distinct; [intros x _ k v []|now apply nodup_fst_pairs]. Qed.
Print Assumptions C08_identity_memo_never_hits.

(* every memoised callable of the current source tree (Gen/C08MemoTable.v, regenerated on each run) is of one of
   these two transparent kinds *)
Theorem C08_memo_table_ok : forall e, In e c08_memo_table -> entry_ok e = true.
Proof. apply forallb_forall. exact memo_table_ok. Qed.
Print Assumptions C08_memo_table_ok.

(* STATE THAT OUTLIVES A RUN, beyond lru_cache (Gen/C08StateTable.v, regenerated from the source on each run):
   no Parameter construction takes its DefaultValue / value from an object shared between runs (a module- or
   class-level container, or a construction executed at import) ... *)
Theorem C08_param_defaults_fresh :
  forall d, In d c08_param_defaults -> pd_kind d <> DShared /\ pd_kind d <> DOther.
Proof.
  intros d H. pose proof (proj1 (forallb_forall _ _) param_defaults_fresh d H) as E.
  unfold default_ok in E. destruct (pd_kind d); split; congruence.
Qed.
Print Assumptions C08_param_defaults_fresh.

(* ... and every container created at import, mutable default argument or `global` name that the source writes to is
   a guarded get-or-create memo / initialise-once singleton; every setting of the interpreter or of an imported library
   that the package writes (mp.dps, np.seterr, os.environ, os.chdir ...) is written by EVERY run, in its entry point,
   to an input-independent value (se_keyed_memo is the table's "harmless" flag) *)
Theorem C08_state_table_ok :
  forall e, In e c08_state_table -> se_mutated e = true -> se_keyed_memo e = true.
Proof.
  intros e H Hm. pose proof (proj1 (forallb_forall _ _) state_table_ok e H) as E.
  unfold state_ok in E. now rewrite Hm in E.
Qed.
Print Assumptions C08_state_table_ok.

(* HASH-SEED INDEPENDENCE of iteration orders (same generated file): every loop / comprehension of the source over a dict
   view or a set expression is listed, and none walks a set *)
Theorem C08_iteration_order_table_ok : forall i, In i c08_iterations -> it_kind i <> ISet.
Proof.
  intros i H. pose proof (proj1 (forallb_forall _ _) iterations_ok i H) as E.
  unfold iteration_ok in E. destruct (it_kind i); congruence.
Qed.
Print Assumptions C08_iteration_order_table_ok.

(* the verdicts on the implementation's observations are computed by these checkers; they are sound *)
Theorem C08_checkers_sound :
  forall fixed g d a ops os,
  session_check fixed g d a ops os = [] ->
  steps_ok g (g_files g) (ptrace g fixed d a ops) os.
Proof. intros *. apply session_codes_nil. Qed.
Print Assumptions C08_checkers_sound.

Theorem C08_restore_checker_sound :
  forall o b, check_restore_step o b = true -> is_run o = true ->
  o_cwd_after b = o_cwd_before b /\ o_argv_after b = o_argv_before b.
Proof.
  unfold check_restore_step. intros o b H Hr. rewrite Hr in H. apply andb_true_iff in H as [H1 H2].
  split; [now apply dir_eqb_eq|now apply (list_eqb_eq arg_eqb arg_eqb_eq)].
Qed.
Print Assumptions C08_restore_checker_sound.

Theorem C08_refines_checker_sound :
  forall g f o b orc p, check_refines_step g f o b = true -> request_of g o = Some (orc, p) ->
  (forall r h, o_out b = Returned r h ->
     expected_with nat nat orc f (cresolve (g_rt g) (o_cwd_before b) p) = Some r)
  /\ (o_out b = Raised -> expected_with nat nat orc f (cresolve (g_rt g) (o_cwd_before b) p) = None).
Proof.
  unfold check_refines_step. intros g f o b orc p H Hq. rewrite Hq in H.
  destruct (o_out b) as [r h| | |], (expected_with nat nat orc f (cresolve (g_rt g) (o_cwd_before b) p));
    split; try discriminate; try reflexivity.
  intros r' h' [= <- _]. now apply Nat.eqb_eq in H as ->.
Qed.
Print Assumptions C08_refines_checker_sound.

(* a history with failing and successful requests (GEOPHIRES and HIP-RA) on which the restore theorem speaks *)
Example C08_restore_example :
  let g := mkCfg [0] [(1, 2)] [] [] in
  List.length (filter (fun e => is_client_run nat (eop e))
            (ptrace g true (DUser 3) [AUser 0]
               [NewClient true; Get 0 7; Write 1 0; Get 0 1; Get 0 1; Write 2 2; HipGet 1 2; HipGet 2 2])) = 5
  /\ map (@eout nat nat Z) (ptrace g true (DUser 3) [AUser 0] [Write 2 2; HipGet 1 2; HipGet 2 2; HipGet 1 9])
     = [Done; Returned (hipres 1 2) false; Raised; Raised].
Proof. split; vm_compute; reflexivity. Qed.

(* the hypotheses of the partial refinement theorem are satisfiable by a history that rewrites files (before they
   are cached, and other files afterwards), changes directory, and returns results *)
Example C08_refines_example :
  let ops := [NewClient true; Write 0 0; Write 0 1; Get 0 0; Chdir (DUser 2); Write 1 0; Get 0 1; Get 0 0] in
  let t := ptrace (plain_cfg [0; 1]) true DSrc [] ops in
  (forall p q, In p [0; 1] -> In q [0; 1] -> chash p = chash q -> p = q)
  /\ (forall ci p, In (Get ci p) ops -> In p [0; 1])
  /\ Forall (fun e => forall w, wpath nat (eop e) = Some w -> forall p, cresolve [] DSrc p = w ->
                      forall cl, In cl (clients (before e)) -> caching cl = true ->
                      cache_lookup Z.eqb (chash p) (cache cl) = None) t
  /\ (forall p, In p [0; 1] -> forall d, cresolve [] d p = cresolve [] DSrc p)
  /\ map (@eout nat nat Z) t = [Done; Done; Done; Returned 1 false; Done; Done; Returned 0 false; Returned 1 true].
Proof.
  cbv zeta. split; [|split; [|split; [|split]]].
  - intros p q _ _ H. apply Nat2Z.inj. exact H.
  - intros ci p H. repeat (destruct H as [H|H]; [inversion H; subst; simpl; auto|]). destruct H.
  - (* only the three writes say anything: the one client holds no entry under the written path at that moment *)
    vm_compute. repeat constructor; intros w Hw; try discriminate Hw.
    all: injection Hw as <-; intros p -> cl [<-|[]] _; reflexivity.
  - reflexivity.
  - vm_compute. reflexivity.
Qed.

(* relative names with the current clients and caching off: each request runs the file the name has in the caller's
   directory of the moment (source directory: file 90 = content 1; directory 0: file 60 = content 0) *)
Example C08_relative_example :
  map (@eout nat nat Z) (ptrace rel_cfg true DSrc [] [NewClient false; Get 0 100; Chdir (DUser 0); Write 60 0; Get 0 100])
  = [Done; Returned 1 false; Done; Done; Returned 0 false]
  /\ map (@eout nat nat Z) (ptrace_with pinned_opendir rel_cfg true DSrc []
                             [NewClient false; Get 0 100; Chdir (DUser 0); Write 60 0; Get 0 100])
     = [Done; Returned 1 false; Done; Done; Returned 1 false].
Proof. split; vm_compute; reflexivity. Qed.

(* with the content-keyed cache on top, relative names and rewritten files: every result is the caller's content *)
Example C08_repairs_example :
  map (@eout nat nat (Z * option nat))
      (ctrace_with caller_opendir rel_cfg true (DUser 0) []
         [NewClient true; Write 60 0; Get 0 100; Write 60 1; Get 0 100; Chdir DSrc; Get 0 100])
  = [Done; Done; Returned 0 false; Done; Returned 1 false; Done; Returned 1 true].
Proof. vm_compute. reflexivity. Qed.

(* the repaired (content-keyed) client on the stale witness: the second request runs the new content *)
Example C08_content_key_example :
  (forall a b, Nat.eqb a b = true -> a = b)
  /\ map (@eout nat nat (Z * option nat))
         (ctrace (plain_cfg [0; 1]) true (DUser 0) []
            [NewClient true; Write 0 0; Get 0 0; Write 0 1; Get 0 0; Write 0 0; Get 0 0])
     = [Done; Done; Returned 0 false; Done; Returned 1 false; Done; Returned 0 true].
Proof. split; [intros a b H; now apply Nat.eqb_eq|vm_compute; reflexivity]. Qed.

(* a function that respects key equality although the keys are not identical (1 == 1.0 in Python) *)
Example C08_memo_example :
  let keq := fun a b : nat * bool => Nat.eqb (fst a) (fst b) in
  (forall a b, keq a b = true -> fst a = fst b)
  /\ fst (memo_calls keq fst (Some 2) [] [(1, true); (2, true); (1, false); (3, true); (2, true)])
     = [(1, false); (2, false); (1, true); (3, false); (2, false)].
Proof. split; [intros a b H; now apply Nat.eqb_eq|vm_compute; reflexivity]. Qed.

(* distinct identities, different states *)
Example C08_identity_example :
  NoDup (map fst [(5, 10); (6, 10); (7, 30)])
  /\ id_calls (fun s : nat => s) (Some 2) [(5, 10); (6, 10); (7, 30)] = [(10, false); (10, false); (30, false)].
Proof. split; [repeat constructor; simpl; intuition discriminate|vm_compute; reflexivity]. Qed.

(* the generated table is not empty and contains both kinds *)
Example C08_memo_table_example :
  existsb (fun e => match me_kind e with ValueKeyed => true | _ => false end) c08_memo_table = true
  /\ existsb (fun e => match me_kind e with IdentityKeyed _ => true | _ => false end) c08_memo_table = true.
Proof. split; vm_compute; reflexivity. Qed.

Example C08_iteration_table_example :
  c08_iterations <> [] /\ existsb iteration_ok c08_iterations = true.
Proof. split; [discriminate|vm_compute; reflexivity]. Qed.

(* a work package of three iterations after ordinary requests, next to a client that holds a (stale) entry *)
Example C08_mc_package_example :
  map (@eout nat nat Z)
      (ptrace (plain_cfg [0; 1]) true (DUser 1) [AUser 0]
         ([NewClient true; Write 0 0; Get 0 0; Write 0 1] ++ mc_package 1 [5; 6; 7] 1 ++ [Get 0 0; Get 2 6]))
  = [Done; Done; Returned 0 false; Done;
     Done; Done; Returned 1 false; Done; Done; Done; Returned 1 false; Done; Done; Done; Returned 1 false; Done;
     Returned 0 true; Returned 1 true].   (* the last two are hits of the path-keyed cache: file 0 was rewritten, file 6 deleted *)
Proof. vm_compute. reflexivity. Qed.

(* the generated tables are not empty *)
Example C08_state_table_example :
  c08_param_defaults <> [] /\ existsb default_ok c08_param_defaults = true
  /\ existsb (fun d => match pd_kind d with DFresh => true | _ => false end) c08_param_defaults = true.
Proof. split; [discriminate|split; vm_compute; reflexivity]. Qed.

(* the session checker accepts a faithful observation of the stale witness only with the STALE code at step 4 *)
Example C08_checker_example :
  session_check true (plain_cfg [0; 1]) (DUser 0) [AUser 0]
    [NewClient true; Write 0 0; Get 0 0; Write 0 1; Get 0 0]
    [mkObs (DUser 0) [AUser 0] (DUser 0) [AUser 0] Done; mkObs (DUser 0) [AUser 0] (DUser 0) [AUser 0] Done;
     mkObs (DUser 0) [AUser 0] (DUser 0) [AUser 0] (Returned 0 false);
     mkObs (DUser 0) [AUser 0] (DUser 0) [AUser 0] Done;
     mkObs (DUser 0) [AUser 0] (DUser 0) [AUser 0] (Returned 0 true)] = [44%N].
Proof. vm_compute. reflexivity. Qed.
