(* Props/C09.v - The case report states what was computed.
   The statements; each proof is a lemma of Proofs/ or a few steps from the lemmas there. *)
From Coq Require Import String Ascii QArith Qabs ZArith List Bool Setoid Lia.
From Verif Require Import Model.Fmt Model.Float Model.Report Gen.ReportLabels Proofs.FmtProofs Proofs.FmtSciProofs Proofs.FmtGenProofs Proofs.FloatProofs Proofs.ReportProofs Proofs.ReportGenProofs.
Import ListNotations.


(* For EVERY rational q (so every finite double) and precision p, the decimal a '.pf' field displays is within
   half a unit of the last displayed place of q (half-even on the exact value, which is what CPython prints). *)
Theorem C09_round_half_ulp :
  forall q p, (Qabs (shown q p - q) <= (1#2) / inject_Z (pow10 p))%Q.
Proof. exact shown_within_half_ulp. Qed.
Print Assumptions C09_round_half_ulp.

(* For every q, width w and precision p the TEXT of format(q, 'w.pf') (sign, padding, any number of integer digits,
   '-0.00' included) reads back as exactly that rounded decimal. *)
Theorem C09_fixed_text_is_rounded_value :
  forall q w p, parse_dec (fmt_f (Fin q) w p) = Some (shown q p).
Proof. exact fmt_f_parse_back. Qed.
Print Assumptions C09_fixed_text_is_rounded_value.

(* the same with thousands separators, format(q, 'w,.pf') (S-DAC-GT report): the reader skips the commas *)
Theorem C09_comma_text_is_rounded_value :
  forall q w p, parse_dec_comma (fmt_fc (Fin q) w p) = Some (shown q p).
Proof.
  intros q w p. unfold parse_dec_comma, fmt_fc, chars. rewrite list_ascii_of_string_of_list_ascii.
  apply fmt_f_chars_reads.
Qed.
Print Assumptions C09_comma_text_is_rounded_value.

(* hence: what a reader sees in a fixed field is the quantity rounded to the displayed precision *)
Theorem C09_printed_figure_is_quantity_rounded :
  forall q w p, exists z, parse_dec (fmt_f (Fin q) w p) = Some z /\ (Qabs (z - q) <= (1#2) / inject_Z (pow10 p))%Q.
Proof. intros q w p. exists (shown q p). split; [apply fmt_f_parse_back|apply shown_within_half_ulp]. Qed.
Print Assumptions C09_printed_figure_is_quantity_rounded.

(* the decimal exponent the formatter computes from digit counts is floor(log10 |q|), for every q <> 0 *)
Theorem C09_decimal_exponent :
  forall q, ~ (q == 0)%Q -> (Qpow10 (ilog10 q) <= Qabs q /\ Qabs q < Qpow10 (ilog10 q + 1))%Q.
Proof. exact ilog10_spec. Qed.
Print Assumptions C09_decimal_exponent.

(* |q| rounded half-even to n significant digits is an n-digit integer m at exponent x (a carry to 10^n moves to the next
   exponent), within half a unit of its last digit *)
Theorem C09_significant_digits :
  forall q n, ~ (q == 0)%Q -> (1 <= n)%nat -> forall m x, sig_round q n = (m, x) ->
  (pow10 (n - 1) <= m < pow10 n)%Z /\
  (Qabs (inject_Z m * Qpow10 (x - Z.of_nat n + 1) - Qabs q) <= (1#2) * Qpow10 (x - Z.of_nat n + 1))%Q.
Proof. exact sig_round_half_ulp. Qed.
Print Assumptions C09_significant_digits.

(* For every q <> 0, width and precision the TEXT of format(q, 'w.pe') (sign, d.ddd, 'e'/'E', exponent sign, at least two
   exponent digits) reads back as a decimal z with p+1 significant digits, 10^x <= |z| < 10^(x+1), within half a unit of
   its last digit of q. *)
Theorem C09_sci_text_is_rounded_value :
  forall upper q w p, ~ (q == 0)%Q ->
  exists z x, parse_sci (fmt_e upper (Fin q) w p) = Some z /\
    (Qabs (z - q) <= (1#2) * Qpow10 (x - Z.of_nat p))%Q /\ (Qpow10 x <= Qabs z /\ Qabs z < Qpow10 (x + 1))%Q.
Proof.
  intros upper q w p Hq. destruct (sig_round q (S p)) as [m x] eqn:SR.
  destruct (fmt_e_reads upper q w p m x Hq SR) as (z & P & Ez). exists z, x. split; [exact P|].
  replace (x - Z.of_nat p)%Z with (x - Z.of_nat (S p) + 1)%Z by lia.
  exact (sig_value_bounds q (S p) m x Hq ltac:(lia) SR z Ez).
Qed.
Print Assumptions C09_sci_text_is_rounded_value.

(* general format, format(q, 'w.pg') (the gradient lines): P = max p 1 significant digits, trailing zeros removed, positional
   for -4 <= x < P and exponent form otherwise.  For every q <> 0, width and precision the text reads back - as a plain
   decimal or as d.ddde+xx - as a decimal z with 10^x <= |z| < 10^(x+1) within half a unit of its P-th significant digit. *)
Theorem C09_general_text_is_rounded_value :
  forall q w p, ~ (q == 0)%Q ->
  let prec := match p with O => 1%nat | _ => p end in
  exists z x, (parse_dec (fmt_g (Fin q) w p) = Some z \/ parse_sci (fmt_g (Fin q) w p) = Some z) /\
    (Qabs (z - q) <= (1#2) * Qpow10 (x - Z.of_nat prec + 1))%Q /\ (Qpow10 x <= Qabs z /\ Qabs z < Qpow10 (x + 1))%Q.
Proof.
  intros q w p Hq prec. destruct (sig_round q prec) as [m x] eqn:SR.
  destruct (fmt_g_reads q w p m x Hq SR) as (z & P & Ez). exists z, x. split; [exact P|].
  assert (Hp : (1 <= prec)%nat) by (unfold prec; destruct p; lia).
  exact (sig_value_bounds q prec m x Hq Hp SR z Ez).
Qed.
Print Assumptions C09_general_text_is_rounded_value.


(* For EVERY number of years n, label offset, stride k (time steps per year), row template and series: if the table
   is written at all it has exactly n rows, and row i is the template filled with the year label i+off and, for every
   column j, the series entry at index i*k. *)
Theorem C09_rows :
  forall n off k segs cols rows, table n off k segs cols = Some rows ->
  length rows = n /\
  forall i, (i < n)%nat ->
    exists vs s, nth_error rows i = Some s /\ length vs = length cols /\
      (forall j c, nth_error cols j = Some c -> exists v, nth_error c (i * k) = Some v /\ nth_error vs j = Some v) /\
      render_line segs (year_cell (i + off) :: map Num vs) = Some s.
Proof.
  intros n off k segs cols rows H. destruct (table_rows _ _ _ _ _ _ H) as [L R]. split; [exact L|].
  intros i Hi. destruct (R i Hi) as (vs & s & Hs & M & RL). exists vs, s.
  repeat split; [exact Hs|exact (mapM_length _ _ _ M)|exact (mapM_nth _ _ _ M)|exact RL].
Qed.
Print Assumptions C09_rows.

(* The same for tables whose cells are EXPRESSIONS over the snapshot series (PT[i*k]/PT[0], X[i]/1E6, (H0-R[i])*100/H0 ...),
   which is how the correspondence runs them: exactly n rows in order; row i is the year label i+off and, in column j, the
   value the float model gives to the column's expression with every per-row series read at index i*k. *)
Theorem C09_rows_expr :
  forall n off k segs cols rows, etable n off k segs cols = Some rows ->
  length rows = n /\
  forall i, (i < n)%nat ->
    exists vs s, nth_error rows i = Some s /\ length vs = length cols /\
      (forall j e, nth_error cols j = Some e -> exists v, seval (Some (i * k)%nat) e = Some v /\ nth_error vs j = Some v) /\
      render_line segs (year_cell (i + off) :: map (fun x => Num (fl_fval x)) vs) = Some s.
Proof.
  intros n off k segs cols rows H. destruct (etable_rows _ _ _ _ _ _ H) as [L R]. split; [exact L|].
  intros i Hi. destruct (R i Hi) as (vs & s & Hs & M & RL). exists vs, s.
  repeat split; [exact Hs|exact (mapM_length _ _ _ M)|exact (mapM_nth _ _ _ M)|exact RL].
Qed.
Print Assumptions C09_rows_expr.

(* a column that is just a series reads it at the row's index and fails (IndexError) when the series is too short *)
Theorem C09_rows_expr_series :
  forall c idx, seval (Some idx) (plain_col c) = match nth_error c idx with Some x => not_bad x | None => None end.
Proof. exact plain_col_reads. Qed.
Print Assumptions C09_rows_expr_series.

(* the only ways a table is not written: a series shorter than some row's index (Python's IndexError), or a template
   whose fields do not match the cells *)
Theorem C09_rows_failure :
  forall n off k segs cols,
  table n off k segs cols = None <->
  exists i, (i < n)%nat /\ ((exists c, In c cols /\ (length c <= i * k)%nat) \/
                            (exists cs, row_cells off k cols i = Some cs /\ render_line segs cs = None)).
Proof. intros n off k segs cols. rewrite table_none. setoid_rewrite table_row_none. reflexivity. Qed.
Print Assumptions C09_rows_failure.

(* revenue & cash-flow profile, for EVERY lifetime n and number of construction years cy: cy+n rows labelled 0.. in
   order, every series read at the row index, OPEX 0.0 in construction years and the O&M cost afterwards *)
Theorem C09_cashflow_rows :
  forall n cy pos segs coam cols rows, cashflow_table n cy pos segs coam cols = Some rows ->
  length rows = (cy + n)%nat /\
  forall ii, (ii < cy + n)%nat ->
    exists vs s, nth_error rows ii = Some s /\
      mapM (fun c => nth_error c ii) (firstn pos cols ++ opex_col cy n coam :: skipn pos cols) = Some vs /\
      render_line segs (year_cell ii :: map Num vs) = Some s /\
      (pos <= length cols -> nth_error vs pos = Some (if (ii <? cy)%nat then Fin 0 else coam))%nat.
Proof.
  unfold cashflow_table. intros n cy pos segs coam cols rows H. destruct (table_rows _ _ _ _ _ _ H) as [L R].
  split; [exact L|]. intros ii Hii. destruct (R ii Hii) as (vs & s & Es & M & RL).
  rewrite Nat.mul_1_r in M. rewrite Nat.add_0_r in RL. exists vs, s. repeat split; try assumption. intros Hp.
  destruct (mapM_nth _ _ _ M pos _ (nth_error_insert pos cols _ Hp)) as (v & V1 & V2).
  rewrite opex_col_nth in V1 by exact Hii. congruence.
Qed.
Print Assumptions C09_cashflow_rows.

(* the year label of every row is printed exactly *)
Theorem C09_year_label_exact :
  forall n w, exists z, parse_dec (fmt_f (Fin (inject_Z (Z.of_nat n))) w 0) = Some z /\ (z == inject_Z (Z.of_nat n))%Q.
Proof. intros n w. exists (shown (inject_Z (Z.of_nat n)) 0). split; [apply fmt_f_parse_back|apply shown_nat]. Qed.
Print Assumptions C09_year_label_exact.

(* every template the CURRENT writers print inside a per-year loop (table regenerated from their sources on each run)
   is pure text or has a '.0f' field as its first field, the place of the year label in C09_rows and C09_rows_expr *)
Theorem C09_writer_row_templates :
  forall t, In t report_templates -> row_template_ok t = true.
Proof. apply forallb_forall. exact templates_ok_all. Qed.
Print Assumptions C09_writer_row_templates.

(* A double is m * 2^e.  Rounding an exact integer (scaled by 2^e) to 53 bits moves it by at most half a unit of the last
   kept bit, ties included, for EVERY m and e; the result is at most 2^53 in magnitude and is zero only for zero. *)
Theorem C09_float_round_half_ulp :
  forall m e m' e', round53 m e = (m', e') ->
  (e <= e' /\ 2 * Z.abs (m' * 2 ^ (e' - e) - m) <= 2 ^ (e' - e) /\ Z.abs m' <= 2 ^ 53 /\ (m = 0 <-> m' = 0))%Z.
Proof. exact round53_spec. Qed.
Print Assumptions C09_float_round_half_ulp.

(* x + y, x - y, x * y of the model: the EXACT result (s, in units of 2^e0) rounded once - the figure Coq prints for a sum,
   a difference, a product (x 100, x 24) of snapshot quantities is within half a unit of its last bit of the true one *)
Theorem C09_float_add :
  forall mx ex my ey m e, fadd (FD mx ex) (FD my ey) = Some (FD m e) ->
  let e0 := Z.min ex ey in let s := (mx * 2 ^ (ex - e0) + my * 2 ^ (ey - e0))%Z in
  ((s = 0 /\ m = 0) \/ (s <> 0 /\ e0 <= e /\ 2 * Z.abs (m * 2 ^ (e - e0) - s) <= 2 ^ (e - e0) /\ Z.abs m <= 2 ^ 53 /\ m <> 0))%Z.
Proof. intros mx ex my ey m e. rewrite fadd_exact. apply mk_spec. Qed.
Print Assumptions C09_float_add.

Theorem C09_float_sub :
  forall mx ex my ey m e, fsub (FD mx ex) (FD my ey) = Some (FD m e) ->
  let e0 := Z.min ex ey in let s := (mx * 2 ^ (ex - e0) - my * 2 ^ (ey - e0))%Z in
  ((s = 0 /\ m = 0) \/ (s <> 0 /\ e0 <= e /\ 2 * Z.abs (m * 2 ^ (e - e0) - s) <= 2 ^ (e - e0) /\ Z.abs m <= 2 ^ 53 /\ m <> 0))%Z.
Proof. intros mx ex my ey m e. rewrite fsub_exact. apply mk_spec. Qed.
Print Assumptions C09_float_sub.

Theorem C09_float_mul :
  forall mx ex my ey m e, fmul (FD mx ex) (FD my ey) = Some (FD m e) ->
  let s := (mx * my)%Z in let e0 := (ex + ey)%Z in
  ((s = 0 /\ m = 0) \/ (s <> 0 /\ e0 <= e /\ 2 * Z.abs (m * 2 ^ (e - e0) - s) <= 2 ^ (e - e0) /\ Z.abs m <= 2 ^ 53 /\ m <> 0))%Z.
Proof. intros mx ex my ey m e H. apply mk_spec. apply fmul_exact. exact H. Qed.
Print Assumptions C09_float_mul.

(* the printed maximum / minimum of a series is one of its elements *)
Theorem C09_extremes_are_elements :
  forall l x, (np_max l = Some x -> In x l) /\ (np_min l = Some x -> In x l).
Proof. intros l x. split; [apply np_max_in|apply np_min_in]. Qed.
Print Assumptions C09_extremes_are_elements.

(* A line that prints the value itself and takes its unit text from CurrentUnits states the quantity, for every
   parameter state and whatever the conversion pass did to it. *)
Theorem C09_units_current :
  forall p newu f,
  same_quantity (line_states 1%Q UCur (convert_output p newu f)) (q_val (convert_output p newu f), q_cur (convert_output p newu f)).
Proof. intros p newu f. split; [apply Qmult_1_r|reflexivity]. Qed.
Print Assumptions C09_units_current.

(* FULL CLAUSE "the printed unit is the quantity's CurrentUnits" is REFUTED for the lines of the pinned writer that take
   their unit text from PreferredUnits (46 lines, key unit:preferred-own:<label>): after an output-unit request the
   conversion pass changes value and CurrentUnits but the label stays. Witness = the replay of the known finding. *)
Theorem C09_units_preferred_refuted :
  exists p newu f, printed_unit UPref (convert_output p newu f) <> q_cur (convert_output p newu f).
Proof. exists {| q_val := 5; q_cur := "MW"; q_pref := "MW" |}, "kW"%string, 1000%Q. discriminate. Qed.
Print Assumptions C09_units_preferred_refuted.

(* what remains true of those lines: without a unit request for that output (CurrentUnits = PreferredUnits) *)
Theorem C09_units_preferred_partial :
  forall p, q_cur p = q_pref p -> printed_unit UPref p = q_cur p.
Proof. intros p H. symmetry. exact H. Qed.
Print Assumptions C09_units_preferred_partial.

(* value x 100 followed by a literal '%' (Capacity factor, CHP cost allocation, ...) states the fraction itself *)
Theorem C09_percent_literal :
  forall p, q_cur p = ""%string -> same_quantity (understood (line_states 100%Q (ULit "%") p)) (q_val p, q_cur p).
Proof. intros p H. split; [apply Qdiv_mult_l; discriminate|symmetry; exact H]. Qed.
Print Assumptions C09_percent_literal.

(* REFUTED for the five lines that print value x 100 next to CurrentUnits of the unscaled quantity (FCR, accrued
   financing, water loss, annual drawdown, porosity; key percent-unit:<label>): they state 100 times the quantity *)
Theorem C09_percent_current_refuted :
  exists p, q_cur p = ""%string /\ ~ same_quantity (understood (line_states 100%Q UCur p)) (q_val p, q_cur p).
Proof. exists {| q_val := 5#100; q_cur := ""; q_pref := "" |}. split; [reflexivity|]. intros [H _]. discriminate H. Qed.
Print Assumptions C09_percent_current_refuted.

Theorem C09_percent_current_partial :
  forall p, q_cur p = ""%string -> (q_val p == 0)%Q -> same_quantity (understood (line_states 100%Q UCur p)) (q_val p, q_cur p).
Proof. intros p H E. unfold same_quantity, understood, line_states. simpl. rewrite H. simpl. split; [rewrite E; reflexivity|reflexivity]. Qed.
Print Assumptions C09_percent_current_partial.

Theorem C09_scalar_line_layout :
  forall label k w p v u,
  render_line [Lit label; Fld k w p; Lit " "; Str] [Num v; Txt u]
  = Some (label ++ render_fld k w p v ++ " " ++ u)%string.
Proof. intros label k w p v u. cbn [render_line render_str cat]. rewrite append_empty. reflexivity. Qed.
Print Assumptions C09_scalar_line_layout.

(* an exact decimal tie goes to the even digit; the double nearest 2.675 lies below the tie and prints 2.67 *)
Example C09_ex_tie : fmt_f (Fin (2675#1000)) 10 2 = "      2.68"%string
  /\ fmt_f (Fin (3011692045189939 # 1125899906842624)) 10 2 = "      2.67"%string
  /\ fmt_f (Fin (-(1#1000))) 6 2 = " -0.00"%string.
Proof. vm_compute. repeat split; reflexivity. Qed.

(* 0.00012345 to 3 significant digits; 99950 rounds up into the next decade (tie to even: 9.995e4 -> 1.00e+05) *)
Example C09_ex_sci : fmt_e true (Fin (12345#100000000)) 10 2 = "  1.23E-04"%string
  /\ fmt_e false (Fin (99950#1)) 0 2 = "1.00e+05"%string
  /\ sig_round (99950#1) 3 = (100%Z, 5%Z)
  /\ parse_sci "  1.23E-04" = Some ((1 * (inject_Z 123 / inject_Z (pow10 2)) * Qpow10 (-4))%Q).
Proof. vm_compute. repeat split; reflexivity. Qed.

Example C09_ex_general : fmt_g (Fin (74#1)) 10 4 = "        74"%string /\ fmt_g (Fin (12345#100000000)) 0 4 = "0.0001234"%string
  /\ fmt_g (Fin (123456#1)) 10 4 = " 1.235e+05"%string /\ fmt_g (Fin (-(5#2))) 0 1 = "-2"%string.
Proof. vm_compute. repeat split; reflexivity. Qed.

Example C09_ex_comma : fmt_fc (Fin (1234567891#1000)) 0 2 = "1,234,567.89"%string /\ fmt_fc (Fin (-(999995#1000))) 0 2 = "-1,000.00"%string
  /\ parse_dec_comma "1,234,567.89" = Some ((1 * (inject_Z 123456789 / inject_Z (pow10 2)))%Q).
Proof. vm_compute. repeat split; reflexivity. Qed.

(* a 3-year production profile with 2 time steps per year, labels 1..3: rows read indices 0, 2, 4 *)
Example C09_ex_table :
  table 3 1 2 [Lit "  "; Fld KF 2 0; Lit " "; Fld KF 8 2] [[Fin 10; Fin 11; Fin 12; Fin 13; Fin 14]]
  = Some ["   1    10.00"; "   2    12.00"; "   3    14.00"]%string.
Proof. vm_compute. reflexivity. Qed.

(* a series one entry too short: IndexError *)
Example C09_ex_index_error :
  table 3 1 2 [Fld KF 2 0; Lit " "; Fld KF 8 2] [[Fin 10; Fin 11; Fin 12; Fin 13]] = None.
Proof. vm_compute. reflexivity. Qed.

(* lifetime 2, one construction year: three rows, OPEX 0.00 then 1.50 *)
Example C09_ex_cashflow :
  cashflow_table 2 1 1 [Fld KF 3 0; Lit " "; Fld KF 5 2; Lit " "; Fld KF 5 2] (Fin (3#2)) [[Fin 0; Fin 7; Fin 8]]
  = Some ["  0  0.00  0.00"; "  1  7.00  1.50"; "  2  8.00  1.50"]%string.
Proof. vm_compute. reflexivity. Qed.

(* 0.1 + 0.2 = 0.30000000000000004 = 5404319552844596 * 2^-54 (not 0.3); double(2.675) * 100 rounds to 267.5; average 7/3; ratio 6/8 *)
Example C09_ex_float :
  fadd (FD 3602879701896397 (-55)) (FD 3602879701896397 (-54)) = Some (FD 5404319552844596 (-54))
  /\ fmul (FD 3011692045189939 (-50)) (FD 100 0) = Some (FD 4705768820609280 (-44))
  /\ np_average [FD 1 0; FD 2 0; FD 4 0] = Some (FD 5254199565265579 (-51))
  /\ seval (Some 2%nat) (SDiv (SRow (ALeaf [FD 8 0; FD 9 0; FD 6 0])) (SIdx (ALeaf [FD 8 0; FD 9 0; FD 6 0]) 0)) = Some (FD 6755399441055744 (-53))
  /\ etable 2 1 2 [Fld KF 2 0; Lit " "; Fld KF 6 3] [SDiv (SRow (ALeaf [FD 8 0; FD 9 0; FD 6 0])) (SIdx (ALeaf [FD 8 0; FD 9 0; FD 6 0]) 0)]
     = Some [" 1  1.000"; " 2  0.750"]%string.
Proof. vm_compute. repeat split; reflexivity. Qed.

Example C09_ex_units : printed_unit UPref (convert_output {| q_val := 5%Q; q_cur := "MW"; q_pref := "MW" |} "kW" 1000%Q) = "MW"%string
  /\ q_cur (convert_output {| q_val := 5%Q; q_cur := "MW"; q_pref := "MW" |} "kW" 1000%Q) = "kW"%string
  /\ line_states 100%Q UCur {| q_val := 5#100; q_cur := ""; q_pref := "" |} = (((5#100) * 100)%Q, ""%string).
Proof. repeat split; reflexivity. Qed.

Example C09_ex_templates : (0 < length report_templates)%nat.
Proof. vm_compute. apply Nat.leb_le. reflexivity. Qed.
