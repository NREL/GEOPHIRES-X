(* Props/C10.v - The client returns exactly what the report says.
   Statements, derived from the lemmas of Proofs/.  They are about Model/ResultParser.v (GeophiresXResult of
   geophires_x_client/geophires_x_result.py; set.pop() is modelled as an arbitrary choice [k] among the distinct
   matching lines), about the indexed search of Model/ResultParserFast.v that the kernel check runs, about the tables
   Gen/C10Fields.v and Gen/C10Labels.v regenerated from the sources, and about histories of one client process
   (Model/ResultHistory.v). *)
From Coq Require Import String Ascii List ZArith QArith Qabs Bool PeanoNat Lia.
From Verif Require Import Base.Flat Model.ResultParser Model.ResultParserFast Model.ResultHistory Proofs.ResultHistoryProofs Proofs.ResultParserProofs Proofs.ResultParserProofs2
     Proofs.ResultParserFastProofs Proofs.ResultParserTableProofs
     Gen.C10Fields Gen.C10Labels.
Import ListNotations.
Open Scope string_scope.

(* a printed scalar line is read back: number and unit, whatever the widths.
   For EVERY label, every indentation and padding (so also a value that overflows its column and leaves a
   single blank), every blank-free value token (negative, huge, 1,234.5, N/A ...), every blank-free unit and
   every trailing blank text: the client's value is _parse_number of exactly that token and its unit exactly
   that unit.  Side condition: label+':' does not occur again in the value region.  (The statements also ask that
   the label does not start with a blank and that label and value are at least two blanks apart in total; the
   result does not depend on either: ResultParserProofs.value_region has neither.) *)
Theorem C10_roundtrip_unit :
  forall name tok unit trail indent pad,
  head_not_space name ->
  ws_free tok = true -> tok <> "" -> ws_free unit = true -> unit <> "" -> all_ws trail = true ->
  (2 <= indent + pad)%nat ->
  contains (name ++ ":") (spaces pad ++ (tok ++ " " ++ unit) ++ trail) = false ->
  field_of_line name false (render_scalar indent name pad tok (Some unit) trail)
  = MR (parse_number tok) (Some unit).
Proof.
  intros name tok unit trail indent pad _ Ht Htn Hu Hun Htr _ Hc. unfold field_of_line, render_scalar.
  rewrite <- (app_assoc_s tok), value_region by auto using value_text_join.
  now rewrite split_token_unit.
Qed.
Print Assumptions C10_roundtrip_unit.

(* a line without unit: the unit is "count" exactly for labels starting with "Number", nothing otherwise *)
Theorem C10_roundtrip_bare :
  forall name tok trail indent pad,
  head_not_space name ->
  ws_free tok = true -> tok <> "" -> all_ws trail = true ->
  (2 <= indent + pad)%nat ->
  contains (name ++ ":") (spaces pad ++ tok ++ trail) = false ->
  field_of_line name false (render_scalar indent name pad tok None trail)
  = MR (parse_number tok) (if prefixb "Number" name then Some "count" else None).
Proof.
  intros name tok trail indent pad _ Ht Htn Htr _ Hc. unfold field_of_line, render_scalar.
  change (tok ++ "" ++ trail) with (tok ++ trail). rewrite value_region by auto using value_text_token.
  now rewrite split_char_none by now apply ws_free_no_char.
Qed.
Print Assumptions C10_roundtrip_bare.

(* the field's marker finds the printed line at every indentation >= the client's minimum *)
Theorem C10_line_is_found :
  forall name tok trail indent pad u k,
  (1 <= pad)%nat ->
  contains (field_marker indent name) (render_scalar (k + indent) name pad tok u trail) = true.
Proof.
  intros name tok trail indent [|p] u k Hp; [lia |]. unfold field_marker, render_scalar.
  rewrite spaces_plus, app_assoc_s. apply contains_app_l, contains_prefix.
  rewrite !prefixb_app_same. reflexivity.
Qed.
Print Assumptions C10_line_is_found.

(* the same structure on every invocation (all hash seeds).
   Full clause: "the result does not depend on which matching line set.pop() returns".  The model refutes it:
   two lines with one label and different content (what the writers print when the display unit of a quantity
   shown in two sections is changed) give two different answers. *)
Theorem C10_deterministic_refuted :
  exists name lines k1 k2 r1 r2,
    get_result_field k1 name false 4 lines = Some r1 /\
    get_result_field k2 name false 4 lines = Some r2 /\ r1 <> r2.
Proof.
  (* what the writers print for a chiller run with 'Units:Cooling Produced, kW': SUMMARY shows the current unit,
     SURFACE EQUIPMENT the preferred one *)
  pose (lines := [ "      Average Cooling Production:                          9568.24 kW" ++ NL;
                   "      Average Cooling Production:                          9568.24 MW" ++ NL ]).
  assert (E1 : get_result_field 0 "Average Cooling Production" false 4 lines
               = Some (MR (MFlt 956824 (-2)) (Some "kW"))) by (vm_compute; reflexivity).
  assert (E2 : get_result_field 1 "Average Cooling Production" false 4 lines
               = Some (MR (MFlt 956824 (-2)) (Some "MW"))) by (vm_compute; reflexivity).
  clearbody lines.
  exists "Average Cooling Production", lines, 0%nat, 1%nat, (MR (MFlt 956824 (-2)) (Some "kW")), (MR (MFlt 956824 (-2)) (Some "MW")).
  repeat split; [exact E1 | exact E2 | discriminate].
Qed.
Print Assumptions C10_deterministic_refuted.

(* Proved part: if every line carrying the label prints the same token and unit (any indentation, padding and
   trailing blanks, e.g. the SUMMARY and the ENGINEERING copy of "Well depth"), every choice gives that value,
   for every report (list of lines) of every length. *)
Theorem C10_deterministic_partial :
  forall name indent lines tok unit,
  head_not_space name -> ws_free tok = true -> tok <> "" -> ws_free unit = true -> unit <> "" ->
  (forall l, In l lines -> contains (field_marker indent name) l = true ->
     exists ind pad trail, all_ws trail = true /\ (2 <= ind + pad)%nat /\
       contains (name ++ ":") (spaces pad ++ (tok ++ " " ++ unit) ++ trail) = false /\
       l = render_scalar ind name pad tok (Some unit) trail) ->
  forall k x, get_result_field k name false indent lines = Some x -> x = MR (parse_number tok) (Some unit).
Proof.
  intros name indent lines tok unit Hn Ht Htn Hu Hun H. apply get_result_field_uniform. intros l Hl Hc.
  destruct (H l Hl Hc) as (ind & pad & trail & Htr & Hw & Hno & ->). now apply C10_roundtrip_unit.
Qed.
Print Assumptions C10_deterministic_partial.

(* the client's own test for "same value" (equality after collapsing blank runs) does not imply equal answers *)
Theorem C10_ws_equal_is_not_enough :
  exists a b, normalize_ws a = normalize_ws b /\ field_of_line "X" false a <> field_of_line "X" false b.
Proof.
  exists "    X:   5  m", "    X:   5 m". split; [| vm_compute; discriminate].
  (* each side against its normal form: converting the two calls with each other is slow *)
  transitivity " X: 5 m"; reflexivity.
Qed.
Print Assumptions C10_ws_equal_is_not_enough.

(* a result exists as soon as one line carries the label *)
Theorem C10_found_when_printed :
  forall name is_str indent lines l,
  In l lines -> contains (field_marker indent name) l = true ->
  exists x, get_result_field 0 name is_str indent lines = Some x.
Proof.
  intros name is_str indent lines l Hl Hc. unfold get_result_field, field_candidates.
  assert (Hin : In l (matching_lines (field_marker indent name) lines)) by (apply matching_lines_In; auto).
  destruct (matching_lines (field_marker indent name) lines); [contradiction | simpl; eauto].
Qed.
Print Assumptions C10_found_when_printed.

(* never a value from another line.
   Over the tables regenerated from the CURRENT sources (every field of _RESULT_FIELDS_BY_CATEGORY x every
   label any f.write of the five report writers can print): a field's marker occurs in the printed prefix of a
   line only if that line carries the field's own label, and in no banner / heading / note line at all. *)
Theorem C10_no_foreign_match :
  forall f l, In f C10Fields.fields -> In l C10Labels.writer_labels ->
  contains (marker_of f) (label_prefix l) = true -> own_label f l = true.
Proof. exact (no_foreign_match_table_labels _ _ _ no_foreign_match_now). Qed.
Print Assumptions C10_no_foreign_match.

Theorem C10_no_match_in_other_lines :
  forall f o, In f C10Fields.fields -> In o C10Labels.writer_other_lines -> contains (marker_of f) o = false.
Proof. exact (no_foreign_match_table_others _ _ _ no_foreign_match_now). Qed.
Print Assumptions C10_no_match_in_other_lines.

(* the kernel check scans only the lines that have ": " or " = ": that loses no field *)
Theorem C10_prefilter_sound :
  forall f lines, candidates_of f (filter relevant_line lines) = candidates_of f lines.
Proof. exact candidates_prefilter. Qed.
Print Assumptions C10_prefilter_sound.

(* profile tables: the same numbers in order, no row dropped, no column shifted.
   For EVERY number of rows n >= 1 and columns m >= 1, every blank- and bar-free non-empty cell text, any
   separators made of blanks and '|' that keep a blank between two cells: the add-on style extraction
   (EXTENDED ECONOMIC, REVENUE & CASHFLOW, S-DAC-GT, CCUS profiles) returns exactly n rows, row i being
   _parse_number of the cells of printed row i in order. *)
Theorem C10_table :
  forall pre (rows : list row) m,
  List.length pre = 5%nat -> rows <> [] -> (1 <= m)%nat ->
  (forall r, In r rows -> row_ok r = true /\ List.length (snd r) = m) ->
  addons_rows (pre ++ map render rows) = Some (map (fun r => map parse_number (row_tokens r)) rows).
Proof.
  intros pre rows m Hpre Hne Hm H. rewrite <- (map_map row_tokens (map parse_number)).
  apply (addons_rows_uniform _ _ m).
  - rewrite skipn_exact, map_map by assumption. apply map_ext_in. intros r Hr. apply row_split, H, Hr.
  - destruct rows; [contradiction | discriminate].
  - intros x Hx. apply in_map_iff in Hx. destruct Hx as (r & <- & Hr). now apply row_tokens_ok; try apply H.
Qed.
Print Assumptions C10_table.

(* csv export.
   field categories: exactly one row per field that has a value, carrying that value and unit *)
Theorem C10_csv_fields :
  forall (V : Type) cat (fs : list (string * option (V * option string))) r,
  In r (csv_fields cat fs) <->
  exists name v u, In (name, Some (v, u)) fs /\ r = CSV cat (escape_commas name) None v (unit_text u).
Proof.
  induction fs as [|[name [[v u]|]] fs IH]; intros r; simpl.
  - split; [tauto | intros (? & ? & ? & [] & _)].
  - rewrite IH. split.
    + intros [<- | (n & v' & u' & Hin & ->)]; [exists name, v, u; auto | exists n, v', u'; auto].
    + intros (n & v' & u' & [E | Hin] & ->); [inversion E; subst; auto | right; exists n, v', u'; auto].
  - rewrite IH. split.
    + intros (n & v' & u' & Hin & ->). exists n, v', u'; auto.
    + intros (n & v' & u' & [E | Hin] & ->); [discriminate | exists n, v', u'; auto].
Qed.
Print Assumptions C10_csv_fields.

(* profile categories: for every number of columns and rows, the entry of column k (k-th title after the
   year) and data row j sits at position k*rows+j and carries the year of row j (its column 0), the cell
   (j, k+1) and the name / unit split of that title; the export has columns*rows entries *)
Theorem C10_csv_table :
  forall (V : Type) cat h0 (hs : list string) (rows : list (list V)) l,
  csv_table cat (h0 :: hs) rows = Some l ->
  List.length l = (List.length hs * List.length rows)%nat /\
  forall k h, nth_error hs k = Some h -> forall j r, nth_error rows j = Some r ->
    exists y v, nth_error r 0 = Some y /\ nth_error r (S k) = Some v /\
                nth_error l (k * List.length rows + j)
                = Some (CSV cat (fst (header_name_unit h)) (Some y) v (snd (header_name_unit h))).
Proof. intros V cat h0 hs rows l. exact (csv_columns_spec V cat hs 0 rows l). Qed.
Print Assumptions C10_csv_table.

(* and it is defined whenever every row has a cell for every title (otherwise Python raises IndexError) *)
Theorem C10_csv_table_defined :
  forall (V : Type) cat h0 (hs : list string) (rows : list (list V)),
  (forall r, In r rows -> (List.length hs < List.length r)%nat) ->
  exists l, csv_table cat (h0 :: hs) rows = Some l.
Proof. intros V cat h0 hs rows. exact (csv_columns_defined V cat hs 0 rows). Qed.
Print Assumptions C10_csv_table_defined.

(* the .json next to the report: the rounding test inside the checker json_agrees (Model/ResultParser.v), read as
   an inequality between the quantity and the printed figure *)
Theorem C10_json_rounds :
  forall q m e, rounds_to q m e = true ->
  (Qabs (q - mflt_Q m e) <= (1 # 2) * pow10Q e + float_tol * Qabs q)%Q.
Proof. intros q m e H. now apply Qle_bool_iff in H. Qed.
Print Assumptions C10_json_rounds.

(* equal-sign fields: "every printed label is found" is refuted by the line the writer prints for the
   BICYCLE model (two blanks before '='): the client reports no Economic Model for such a report *)
Theorem C10_equal_sign_label_found_refuted :
  exists lab v, strip lab = "Economic Model" /\
                eq_candidates "Economic Model" [spaces 6 ++ lab ++ " = " ++ v ++ NL] = [].
Proof. exists "Economic Model ", "BICYCLE". split; vm_compute; reflexivity. Qed.
Print Assumptions C10_equal_sign_label_found_refuted.

(* Proved part: a line that prints the label followed by exactly " = " is read back as the text after the equal
   sign up to the end of the line, for every label, indentation >= 2 and value without a line break *)
Theorem C10_equal_sign_partial :
  forall name v n,
  head_not_space name ->
  all_chars (fun c => negb (Ascii.eqb c NLc)) v = true ->
  contains (eq_marker name) (v ++ NL) = false ->
  eq_of_line (eq_marker name) (spaces n ++ eq_marker name ++ v ++ NL) = MR (MStr v) None.
Proof. intros name v n _. apply eq_field_read. Qed.
Print Assumptions C10_equal_sign_partial.

(* rows of the HEATING / COOLING / ELECTRICITY production profiles.
   For every number of rows, every row that starts with a blank, has >= 2 blank-free cells separated by blanks
   and nothing after the last cell: the rows come back in order, cell by cell, none dropped. *)
Theorem C10_profile_rows :
  forall (rows : list row),
  (forall r, In r rows -> prow_ok r = true /\ (2 <= List.length (snd r))%nat) ->
  data_rows (map render rows) = map (fun r => map parse_number (row_tokens r)) rows.
Proof.
  intros rows H. unfold data_rows. rewrite map_map.
  rewrite (map_ext_in _ row_tokens).
  2:{ intros r Hr. destruct (H r Hr) as [Hok _]. unfold prow_ok in Hok.
      rewrite !andb_true_iff, is_empty_false in Hok. destruct Hok as [[[Hl Hn] Hc] He].
      unfold render. now rewrite resplit1_row. }
  rewrite filter_all; [now rewrite map_map |].
  intros x Hx. apply in_map_iff in Hx. destruct Hx as (r & <- & Hr). destruct (H r Hr) as [_ Hl].
  unfold row_tokens. rewrite map_length. apply Nat.ltb_lt. lia.
Qed.
Print Assumptions C10_profile_rows.

(* the block of a profile.
   _get_profile_lines: for every text  pre ++ banner ++ body ++ blank line ++ post  in which the banner first
   occurs after pre, does not occur again, and body has no empty line: the profile lines are exactly the lines of
   body (so the table ends at the first empty line and nothing of pre / post leaks in); no banner -> IndexError *)
Theorem C10_profile_lines :
  forall name pre body post,
  let banner := "*  " ++ name ++ "  *" in
  first_at banner pre (body ++ NL ++ NL ++ post) ->
  contains banner (body ++ NL ++ NL ++ post) = false ->
  first_at (NL ++ NL) body post ->
  get_profile_lines name (pre ++ banner ++ body ++ NL ++ NL ++ post) = Some (split_char NLc body).
Proof.
  intros name pre body post banner H1 H2 H3. unfold get_profile_lines, split_str. fold banner.
  rewrite split_first, split_no_occurrence by (assumption || discriminate).
  cbv iota. unfold hd. now rewrite <- (app_assoc_s NL NL), split_first by (assumption || discriminate).
Qed.
Print Assumptions C10_profile_lines.

Theorem C10_profile_lines_of_block :
  forall rest l, Forall (fun x => all_chars (fun c => negb (Ascii.eqb c NLc)) x = true) (l :: rest) ->
  split_char NLc (join_lines l rest) = l :: rest.
Proof.
  induction rest; intros l H.
  - simpl. apply split_char_none. now inversion H.
  - inversion H; subst. simpl join_lines. change (NL ++ join_lines a rest) with (String NLc (join_lines a rest)).
    rewrite split_char_app by assumption. f_equal. now apply IHrest.
Qed.
Print Assumptions C10_profile_lines_of_block.

Theorem C10_profile_absent :
  forall name text, contains ("*  " ++ name ++ "  *") text = false -> get_profile_lines name text = None.
Proof. intros name text H. unfold get_profile_lines, split_str. now rewrite split_no_occurrence. Qed.
Print Assumptions C10_profile_absent.

(* header reconstruction of the production profiles: for every three (or more, or fewer) heading lines, whenever
   the reconstruction succeeds it yields exactly one title per word group of the FIRST heading line - the other
   lines only extend titles, they never add or drop a column *)
Theorem C10_header_count :
  forall h1 rest hs,
  header_lines 0 (h1 :: rest) [] = Some hs -> List.length hs = List.length (tl (resplit2 h1)).
Proof.
  intros h1 rest hs H. simpl in H. destruct (header_cols 0 0 _ _) eqn:E; [| discriminate].
  rewrite (header_lines_length _ _ _ _ (Nat.lt_0_succ _) H), (header_cols_length _ _ _ _ _ E). apply map_length.
Qed.
Print Assumptions C10_header_count.

(* the carbon revenue view: for every revenue table (any number of rows, any widths), when the view exists it is
   exactly the listed columns of every row, rows in order, and some carbon price is non-zero; when all carbon
   prices are zero there is no view *)
Theorem C10_carbon_view :
  forall cpi idx rows r,
  carbon_view cpi idx rows = Some (Some r) ->
  r = map (fun row => map (fun i => nth i row MNone) idx) rows /\ List.length r = List.length rows
  /\ existsb (fun row => mval_nonzero (nth cpi row MNone)) rows = true.
Proof.
  intros cpi idx rows r H. unfold carbon_view in H. destruct rows as [|row rows]; [discriminate |].
  destruct (pick_rows [cpi] _) as [col|] eqn:Ec; [| discriminate].
  destruct (existsb _ col) eqn:Ee; [| discriminate]. injection H as Hp.
  change (pick_rows idx (row :: rows) = Some r) in Hp. apply pick_rows_spec in Hp, Ec. subst r col. rewrite existsb_map in Ee. now rewrite map_length.
Qed.
Print Assumptions C10_carbon_view.

Theorem C10_carbon_view_absent :
  forall cpi idx rows,
  (forall row, In row rows -> (cpi < List.length row)%nat) ->
  existsb (fun row => mval_nonzero (nth cpi row MNone)) rows = false ->
  carbon_view cpi idx rows = Some None.
Proof.
  intros cpi idx rows Hl He. unfold carbon_view.
  destruct (pick_rows_defined [cpi] rows) as [col Ec]; [intros row Hr i [<- | []]; now apply Hl |].
  rewrite Ec. apply pick_rows_spec in Ec. subst col.
  rewrite existsb_map. simpl. rewrite He. now destruct rows.
Qed.
Print Assumptions C10_carbon_view_absent.

(* _parse_number against the writers' fixed-point formats ({:w.pf}, {:,.pf}, {:w.0f}): for EVERY sign, every
   non-empty first digit group, every further ','-separated groups (thousands separators, any grouping) and every
   list of p decimals: the parsed figure is the integer (p = 0) resp. the decimal mantissa * 10^-p it spells *)
Theorem C10_number_integer :
  forall neg g gs, all_digits g = true -> forallb all_digits gs = true -> g <> [] ->
  parse_number (render_number neg g gs []) = MInt (sign_of neg * digits_val 0 (g ++ concat gs)).
Proof. intros neg g gs Hg Hgs Hne. now apply (parse_rendered neg g gs []). Qed.
Print Assumptions C10_number_integer.

Theorem C10_number_decimal :
  forall neg g gs, all_digits g = true -> forallb all_digits gs = true -> g <> [] ->
  forall f fs, all_digits (f :: fs) = true ->
  parse_number (render_number neg g gs (f :: fs))
  = MFlt (sign_of neg * (digits_val 0 (g ++ concat gs) * 10 ^ Z.of_nat (List.length (f :: fs)) + digits_val 0 (f :: fs)))
         (- Z.of_nat (List.length (f :: fs))).
Proof. intros neg g gs Hg Hgs Hne f fs Hf. now apply (parse_rendered neg g gs (f :: fs)). Qed.
Print Assumptions C10_number_decimal.

Theorem C10_number_na : parse_number "N/A" = MNone.
Proof. reflexivity. Qed.
Print Assumptions C10_number_na.

(* string-valued fields (End-Use Option, Power plant type, ...): for every label, widths and every value text that
   re.sub(r'\s\s+', '', .) leaves alone (e.g. words separated by single blanks: ResultParserProofs.solid_join), the value is
   that text, with unit None *)
Theorem C10_string_field :
  forall name indent pad v,
  head_not_space name -> (2 <= indent + pad)%nat ->
  contains (name ++ ":") (spaces pad ++ v ++ NL) = false ->
  solid v -> (exists c r, v = String c r /\ is_ws c = false) ->
  all_chars (fun c => negb (Ascii.eqb c NLc)) v = true ->
  field_of_line name true (spaces indent ++ name ++ ":" ++ spaces pad ++ v ++ NL) = MR (MStr v) None.
Proof.
  intros name indent pad v _ Hw Hc Hs Hh Hnl. unfold field_of_line.
  destruct (field_text name indent pad v NL Hc Hs Hh Hnl) as (j & Hj & ->). rewrite Hj by lia.
  simpl. now rewrite app_nil_r_s.
Qed.
Print Assumptions C10_string_field.

(* the harness hands a report to the kernel line by line: f.readlines() of the joined text gives back exactly those
   lines, each with its line break, for every number of lines *)
Theorem C10_readlines :
  forall ls, Forall (fun l => all_chars (fun c => negb (Ascii.eqb c NLc)) l = true) ls ->
  readlines (join_nl ls) = map (fun l => l ++ NL) ls.
Proof.
  induction ls; intros H; [reflexivity |]. inversion H; subst.
  change (join_nl (a :: ls)) with (a ++ NL ++ join_nl ls). rewrite readlines_line by assumption. simpl. f_equal. auto.
Qed.
Print Assumptions C10_readlines.

(* the kernel check indexes every line once (texts in front of ": " / " = ", reversed) instead of scanning every
   line for every field: a marker m ++ sep matches a line iff reversed m starts one of the indexed texts, so the
   indexed check returns, for every report and every client answer, exactly what the plain model returns *)
Theorem C10_index_match :
  forall m sep l, existsb (prefixb (rev_str m)) (rev_prefixes sep "" l) = contains (m ++ sep) l.
Proof. exact fast_match_iff. Qed.
Print Assumptions C10_index_match.

Theorem C10_indexed_check_sound :
  forall t text raised r, check_report_fast t text raised r = check_report t text raised r.
Proof.
  (* by way of the check whose field search ignores its arguments: each half is then a conversion, and the body of
     check_report_with, with its codes 1000.. 2000 in unary, is never rewritten in *)
  intros. transitivity (check_report_with (fun _ _ _ => check_fields (ct_fields t) text (ir_fields r)) t text raised r);
    [destruct (fast_check_fields_same (ct_fields t) text (ir_fields r)) |]; reflexivity.
Qed.
Print Assumptions C10_indexed_check_sound.

(* histories in one client process: report files are re-written and parsed again.
   The modelled GeophiresXResult is a function of the file's text: for EVERY history of Write / Parse operations
   over any number of paths, the answer to a Parse is the parse of the text the path holds at that moment, and two
   histories with the same writes (whatever was parsed before, however often) give the same answer. *)
Theorem C10_parse_after_history :
  forall (R : Type) (parse : string -> R) ops s p,
  nth_error (run parse s (ops ++ [Parse p])) (parses ops) = Some (option_map parse (lookup p (files_after s ops))).
Proof.
  intros. rewrite run_app, nth_error_app2 by (rewrite run_length; lia).
  now rewrite run_length, Nat.sub_diag.
Qed.
Print Assumptions C10_parse_after_history.

Theorem C10_parse_is_function_of_text :
  forall (R : Type) (parse : string -> R) ops1 ops2 s p,
  filter is_write ops1 = filter is_write ops2 ->
  nth_error (run parse s (ops1 ++ [Parse p])) (parses ops1)
  = nth_error (run parse s (ops2 ++ [Parse p])) (parses ops2).
Proof.
  intros R parse ops1 ops2 s p H.
  now rewrite !C10_parse_after_history, (files_ignore_parses ops1), (files_ignore_parses ops2), H.
Qed.
Print Assumptions C10_parse_is_function_of_text.

Theorem C10_rewritten_file_is_reparsed :
  forall (R : Type) (parse : string -> R) s p a b,
  run parse s [Write p a; Parse p; Write p b; Parse p] = [Some (parse a); Some (parse b)].
Proof. intros. simpl. now rewrite String.eqb_refl. Qed.
Print Assumptions C10_rewritten_file_is_reparsed.

(* one result object, read and exported any number of times in any order: every read gives the parsed result and
   every export the csv of that result - the modelled as_csv is a pure function of the parsed result *)
Theorem C10_csv_is_pure :
  forall (Res C : Type) (csv : Res -> C) (r : Res) ops k,
  nth_error (answers csv r ops) k
  = option_map (fun o => match o with ReadResult => inl r | Export => inr (csv r) end) (nth_error ops k).
Proof. intros. apply nth_error_map. Qed.
Print Assumptions C10_csv_is_pure.

(* non-vacuity: concrete instances satisfying the hypotheses *)
Example C10_ex_roundtrip :
  field_of_line "Well depth" false (render_scalar 6 "Well depth" 1 "-12,345,678.9" (Some "kilometer") NL)
  = MR (MFlt (-123456789) (-1)) (Some "kilometer")
  /\ contains ("Well depth" ++ ":") (spaces 1 ++ ("-12,345,678.9" ++ " " ++ "kilometer") ++ NL) = false.
Proof. split; vm_compute; reflexivity. Qed.

Example C10_ex_bare :
  field_of_line "Number of segments" false (render_scalar 6 "Number of segments" 28 "1" None (" " ++ NL))
  = MR (MInt 1) (Some "count").
Proof. vm_compute. reflexivity. Qed.

Example C10_ex_same_print :   (* the hypothesis of C10_deterministic_partial holds for two differently padded copies *)
  let lines := [render_scalar 6 "Well depth" 45 "3.0" (Some "kilometer") NL;
                render_scalar 6 "Well depth" 20 "3.0" (Some "kilometer") NL; "      Other:  1 m" ++ NL] in
  (forall l, In l lines -> contains (field_marker 4 "Well depth") l = true ->
     exists ind pad trail, all_ws trail = true /\ (2 <= ind + pad)%nat /\
       contains ("Well depth" ++ ":") (spaces pad ++ ("3.0" ++ " " ++ "kilometer") ++ trail) = false /\
       l = render_scalar ind "Well depth" pad "3.0" (Some "kilometer") trail)
  /\ get_result_field 1 "Well depth" false 4 lines = Some (MR (MFlt 30 (-1)) (Some "kilometer")).
Proof.
  intros lines. split; [| vm_compute; reflexivity].
  intros l [E | [E | [E | []]]] H.
  - exists 6%nat, 45%nat, NL. repeat split; [apply Nat.leb_le; reflexivity | now symmetry].
  - exists 6%nat, 20%nat, NL. repeat split; [apply Nat.leb_le; reflexivity | now symmetry].
  - rewrite <- E in H. vm_compute in H. discriminate.
Qed.

Example C10_ex_two_blank_gap_loses_the_unit :   (* why the theorems ask for ONE blank before the unit *)
  field_of_line "X" false ("      X:     5.0  MW" ++ NL) = MR MNone None.
Proof. vm_compute. reflexivity. Qed.

Example C10_ex_table :
  let r1 : row := ("  ", [("1", "      "); ("0.00", "   |   "); ("-25.67", "")]) in
  let r2 : row := ("  ", [("2", "      "); ("9.00", "   |   "); ("123456.78", "")]) in
  row_ok r1 = true /\ row_ok r2 = true /\
  addons_rows (["a"; "b"; "c"; "d"; "e"] ++ map render [r1; r2])
  = Some [[MInt 1; MFlt 0 (-2); MFlt (-2567) (-2)]; [MInt 2; MFlt 900 (-2); MFlt 12345678 (-2)]].
Proof. intros r1 r2. repeat split; vm_compute; reflexivity. Qed.

Example C10_ex_equal_sign :
  eq_of_line (eq_marker "Reservoir Model") (spaces 4 ++ eq_marker "Reservoir Model" ++ "Annual Percentage Thermal Drawdown Model" ++ NL)
  = MR (MStr "Annual Percentage Thermal Drawdown Model") None
  /\ contains (eq_marker "Reservoir Model") ("Annual Percentage Thermal Drawdown Model" ++ NL) = false.
Proof. split; vm_compute; reflexivity. Qed.

Example C10_ex_profile_rows :
  let r1 : row := ("  ", [("1", "           "); ("1.0000", "        "); ("-165.34", "")]) in
  prow_ok r1 = true /\ data_rows (map render [r1]) = [[MInt 1; MFlt 10000 (-4); MFlt (-16534) (-2)]].
Proof. split; vm_compute; reflexivity. Qed.

Example C10_ex_short_row_shifts :   (* why C10_table asks for rows of equal length: a missing cell moves the rest *)
  addons_rows (["a"; "b"; "c"; "d"; "e"] ++ ["  1   2.0   3.0"; "  2   4.0"])
  = Some [[MInt 1; MFlt 20 (-1); MFlt 30 (-1)]; [MInt 2; MNone; MFlt 40 (-1)]].
Proof. vm_compute. reflexivity. Qed.

Example C10_ex_csv :
  csv_table "P" ["Year"; "A (MW)"; "B"] [["1"; "x"; "y"]; ["2"; "z"; "w"]]
  = Some [CSV "P" "A" (Some "1") "x" "MW"; CSV "P" "A" (Some "2") "z" "MW";
          CSV "P" "B" (Some "1") "y" ""; CSV "P" "B" (Some "2") "w" ""].
Proof. vm_compute. reflexivity. Qed.

Example C10_ex_tables_nonempty :
  Nat.leb 200 (List.length C10Fields.fields) = true /\ Nat.leb 150 (List.length C10Labels.writer_labels) = true.
Proof. split; vm_compute; reflexivity. Qed.

Example C10_ex_json : rounds_to (2159876 # 100000) 2160 (-2) = true.
Proof. vm_compute. reflexivity. Qed.

Example C10_ex_number :
  render_number true [1%nat; 2%nat] [[3%nat; 4%nat; 5%nat]; [6%nat; 7%nat; 8%nat]] [9%nat; 0%nat] = "-12,345,678.90"
  /\ parse_number "-12,345,678.90" = MFlt (-1234567890) (-2)
  /\ parse_number (render_number false [4%nat; 2%nat] [] []) = MInt 42.
Proof. repeat split; vm_compute; reflexivity. Qed.

Example C10_ex_profile_lines :
  get_profile_lines "T" ("x" ++ NL ++ "*  T  *" ++ (NL ++ "***" ++ NL ++ "  1  2.0") ++ NL ++ NL ++ "rest")
  = Some [""; "***"; "  1  2.0"].
Proof. vm_compute. reflexivity. Qed.

Example C10_ex_header_count :
  header_lines 0 ["  YEAR       THERMAL               GEOFLUID"; "             DRAWDOWN             TEMPERATURE";
                  "                                   (deg C)"] []
  = Some ["YEAR"; "THERMAL DRAWDOWN"; "GEOFLUID TEMPERATURE (deg C)"].
Proof. vm_compute. reflexivity. Qed.

Example C10_ex_carbon_view :
  carbon_view 1 [0%nat; 1%nat] [[MInt 1; MFlt 1 (-2); MInt 7]; [MInt 2; MFlt 0 (-2); MInt 8]]
  = Some (Some [[MInt 1; MFlt 1 (-2)]; [MInt 2; MFlt 0 (-2)]]).
Proof. vm_compute. reflexivity. Qed.

Example C10_ex_index :
  rev_prefixes ": " "" "    Well depth: 3.0" = ["htped lleW    "]
  /\ existsb (prefixb (rev_str "    Well depth")) (rev_prefixes ": " "" "      Well depth: 3.0") = true.
Proof. split; vm_compute; reflexivity. Qed.

Example C10_ex_string_field :
  solid ("Direct-Use" ++ " " ++ "Heat")
  /\ field_of_line "End-Use Option" true (spaces 6 ++ "End-Use Option" ++ ":" ++ spaces 1 ++ "Direct-Use Heat" ++ NL)
     = MR (MStr "Direct-Use Heat") None.
Proof. split; [apply solid_join; [reflexivity | reflexivity | discriminate] | vm_compute; reflexivity]. Qed.

Example C10_ex_readlines : readlines (join_nl ["a b"; ""; "c"]) = ["a b" ++ NL; NL; "c" ++ NL].
Proof. vm_compute. reflexivity. Qed.

Example C10_ex_history :   (* the revenue table of the model after a re-write is the table of the new text *)
  forall a b, run revenue_table [] [Write "P" a; Parse "P"; Parse "P"; Write "P" b; Parse "P"]
              = [Some (revenue_table a); Some (revenue_table a); Some (revenue_table b)].
Proof. intros. reflexivity. Qed.

Example C10_ex_csv_pure :
  forall cats : list (string * catval string),
  answers csv_all cats [ReadResult; Export; ReadResult; Export] = [inl cats; inr (csv_all cats); inl cats; inr (csv_all cats)].
Proof. intros. reflexivity. Qed.
