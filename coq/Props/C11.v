(* Props/C11.v - Economic results scale the way the definitions require.
   The statements; the supporting lemmas are in Proofs/ScalingProofs.v. *)
From Coq Require Import QArith List ZArith Bool.
From Verif Require Import Base.Flat Model.CashFlow Model.Lcoe Model.Costs
     Proofs.CashFlowProofs Proofs.LcoeProofs Proofs.CostsProofs Proofs.ScalingProofs Props.C01.
Import ListNotations.
Open Scope Q_scope.

(* multiplying every cost input (capital, O&M, electricity purchase rate and the other annual cost streams) by k
   multiplies LCOE, LCOH and LCOC by k: every k, all three economic models, every end-use and plant type, every lifetime *)
Theorem C11_homogeneous : forall (k : Q) (c : lc_in), teq (lcoe_spec (scale_costs k c)) (tscale k (lcoe_spec c)).
Proof. exact lcoe_homogeneous. Qed.
Print Assumptions C11_homogeneous.

(* ... and the same holds of what the code computes (numpy-vector transcription), by C01 *)
Theorem C11_homogeneous_code : forall (k : Q) (c : lc_in), wf_l c -> wf_l (scale_costs k c) ->
  teq (lcoe_code (scale_costs k c)) (tscale k (lcoe_code c)).
Proof. intros k c H _. now apply lcoe_code_homogeneous. Qed.
Print Assumptions C11_homogeneous_code.

(* halving the end-use efficiency (heat series x 1/2) doubles the levelized cost of direct-use heat *)
Theorem C11_efficiency : forall c : lc_in, classify (l_enduse c) (l_plant c) = LHeat ->
  snd (fst (lcoe_spec (with_heat c (map (Qmult (1 # 2)) (l_heat c))))) == 2 * snd (fst (lcoe_spec c)).
Proof. intros c Hk. rewrite (lcoh_efficiency_scaling (1 # 2) c Hk). reflexivity. Qed.
Print Assumptions C11_efficiency.

Theorem C11_efficiency_general : forall (s : Q) (c : lc_in), classify (l_enduse c) (l_plant c) = LHeat ->
  snd (fst (lcoe_spec (with_heat c (map (Qmult s) (l_heat c))))) == / s * snd (fst (lcoe_spec c)).
Proof. exact lcoh_efficiency_scaling. Qed.
Print Assumptions C11_efficiency_general.

(* sale prices are not an argument of the levelized-cost function (its input record [lc_in] has no price field);
   NPV is non-decreasing in every yearly sale price when the energies sold are non-negative and 1 + r > 0 ... *)
Theorem C11_npv_price_monotone : forall (r : Q) (c : cf_in) (pE pH pC pE' pH' pC' : list Q), 0 < 1 + r ->
  nonneg (ci_eE c) -> nonneg (ci_eH c) -> nonneg (ci_eC c) ->
  Forall2 Qle pE pE' -> Forall2 Qle pH pH' -> Forall2 Qle pC pC' ->
  npv r (total_cashflow (with_prices c pE pH pC)) <= npv r (total_cashflow (with_prices c pE' pH' pC')).
Proof. intros r c pE pH pC pE' pH' pC' Hr HE HH HC H1 H2 H3. apply npv_mono; [assumption|]. now apply cashflow_mono_in_prices. Qed.
Print Assumptions C11_npv_price_monotone.

(* ... and strictly increasing as soon as one operating year with positive energy gets a strictly higher price *)
Theorem C11_npv_price_strict : forall (r : Q) (c : cf_in) (pE pE' : list Q), 0 < 1 + r ->
  ci_kind c = KElec -> ci_carbon c = false -> nonneg (ci_eE c) -> Forall2 Qle pE pE' ->
  (exists j, 0 < nth j (ci_eE c) 0 /\ nth j pE 0 < nth j pE' 0 /\ (j < length (ci_eE c))%nat /\ (j < length pE)%nat) ->
  npv r (total_cashflow (with_prices c pE (ci_pH c) (ci_pC c))) < npv r (total_cashflow (with_prices c pE' (ci_pH c) (ci_pC c))).
Proof.
  intros r c pE pE' Hr Hk Hc HE Hp Hj. apply npv_strict_in_revenue; [assumption | |]; rewrite Hk, ?Hc; cbn [product_rev_ops].
  - now apply rev_ops_strict.
  - discriminate.
Qed.
Print Assumptions C11_npv_price_strict.

(* ... for every single-product end-use, with or without carbon revenue (the carbon-price series, identical in both
   runs, covers the years the product is sold): electricity, direct-use heat, cooling *)
Theorem C11_npv_price_strict_elec_carbon : forall (r : Q) (c : cf_in) (pE pE' : list Q), 0 < 1 + r ->
  ci_kind c = KElec -> nonneg (ci_eE c) -> Forall2 Qle pE pE' ->
  (ci_carbon c = true -> (length (ci_eE c) <= length (ci_pCarb c))%nat) ->
  (exists j, 0 < nth j (ci_eE c) 0 /\ nth j pE 0 < nth j pE' 0 /\ (j < length (ci_eE c))%nat /\ (j < length pE)%nat) ->
  npv r (total_cashflow (with_prices c pE (ci_pH c) (ci_pC c))) < npv r (total_cashflow (with_prices c pE' (ci_pH c) (ci_pC c))).
Proof.
  intros r c pE pE' Hr Hk HE Hp Hlen Hj. apply npv_strict_in_revenue; [assumption | |]; rewrite Hk; cbn [product_rev_ops].
  - now apply rev_ops_strict.
  - intros Hc. apply carbon_covers; [apply le_n | exact (Hlen Hc)].
Qed.
Print Assumptions C11_npv_price_strict_elec_carbon.

Theorem C11_npv_price_strict_heat : forall (r : Q) (c : cf_in) (pH pH' : list Q), 0 < 1 + r ->
  ci_kind c = KHeat -> nonneg (ci_eH c) -> Forall2 Qle pH pH' ->
  (ci_carbon c = true -> (length (ci_eH c) <= length (ci_pCarb c))%nat) ->
  (exists j, 0 < nth j (ci_eH c) 0 /\ nth j pH 0 < nth j pH' 0 /\ (j < length (ci_eH c))%nat /\ (j < length pH)%nat) ->
  npv r (total_cashflow (with_prices c (ci_pE c) pH (ci_pC c))) < npv r (total_cashflow (with_prices c (ci_pE c) pH' (ci_pC c))).
Proof.
  intros r c pH pH' Hr Hk HE Hp Hlen Hj. apply npv_strict_in_revenue; [assumption | |]; rewrite Hk; cbn [product_rev_ops].
  - now apply rev_ops_strict.
  - intros Hc. apply carbon_covers; [apply le_n | exact (Hlen Hc)].
Qed.
Print Assumptions C11_npv_price_strict_heat.

Theorem C11_npv_price_strict_cooling : forall (r : Q) (c : cf_in) (pC pC' : list Q), 0 < 1 + r ->
  ci_kind c = KCool -> nonneg (ci_eC c) -> Forall2 Qle pC pC' ->
  (ci_carbon c = true -> (length (ci_eC c) <= length (ci_eH c))%nat /\ (length (ci_eC c) <= length (ci_pCarb c))%nat) ->
  (exists j, 0 < nth j (ci_eC c) 0 /\ nth j pC 0 < nth j pC' 0 /\ (j < length (ci_eC c))%nat /\ (j < length pC)%nat) ->
  npv r (total_cashflow (with_prices c (ci_pE c) (ci_pH c) pC)) < npv r (total_cashflow (with_prices c (ci_pE c) (ci_pH c) pC')).
Proof.
  intros r c pC pC' Hr Hk HE Hp Hlen Hj. apply npv_strict_in_revenue; [assumption | |]; rewrite Hk; cbn [product_rev_ops].
  - now apply rev_ops_strict.
  - intros Hc. destruct (Hlen Hc). now apply carbon_covers.
Qed.
Print Assumptions C11_npv_price_strict_cooling.

(* co-generation sells electricity and heat: a strictly higher price of either product in one year where it is sold,
   with no price of the other product falling, raises NPV strictly *)
Theorem C11_npv_price_strict_cogen_elec : forall (r : Q) (c : cf_in) (pE pE' pH pH' : list Q), 0 < 1 + r ->
  ci_kind c = KCogen -> nonneg (ci_eE c) -> nonneg (ci_eH c) -> Forall2 Qle pE pE' -> Forall2 Qle pH pH' ->
  (length (ci_eE c) <= length (ci_eH c))%nat -> (length (ci_eE c) <= length pH)%nat ->
  (ci_carbon c = true -> (length (ci_eE c) <= length (ci_pCarb c))%nat) ->
  (exists j, 0 < nth j (ci_eE c) 0 /\ nth j pE 0 < nth j pE' 0 /\ (j < length (ci_eE c))%nat /\ (j < length pE)%nat) ->
  npv r (total_cashflow (with_prices c pE pH (ci_pC c))) < npv r (total_cashflow (with_prices c pE' pH' (ci_pC c))).
Proof.
  intros r c pE pE' pH pH' Hr Hk HE HH HpE HpH HlH HlpH Hlen Hj.
  apply npv_strict_in_revenue; [assumption | |]; rewrite Hk; cbn [product_rev_ops].
  - apply F2lt_map2_plus_l; [now apply rev_ops_strict | now apply rev_ops_mono | now apply rev_ops_covers].
  - intros Hc. rewrite map2_length_min. eapply Nat.le_trans; [apply Nat.le_min_l|].
    apply carbon_covers; [now apply Nat.min_glb | exact (Hlen Hc)].
Qed.
Print Assumptions C11_npv_price_strict_cogen_elec.

Theorem C11_npv_price_strict_cogen_heat : forall (r : Q) (c : cf_in) (pE pE' pH pH' : list Q), 0 < 1 + r ->
  ci_kind c = KCogen -> nonneg (ci_eE c) -> nonneg (ci_eH c) -> Forall2 Qle pE pE' -> Forall2 Qle pH pH' ->
  (length (ci_eH c) <= length (ci_eE c))%nat -> (length (ci_eH c) <= length pE)%nat ->
  (ci_carbon c = true -> (length (ci_eH c) <= length (ci_pCarb c))%nat) ->
  (exists j, 0 < nth j (ci_eH c) 0 /\ nth j pH 0 < nth j pH' 0 /\ (j < length (ci_eH c))%nat /\ (j < length pH)%nat) ->
  npv r (total_cashflow (with_prices c pE pH (ci_pC c))) < npv r (total_cashflow (with_prices c pE' pH' (ci_pC c))).
Proof.
  intros r c pE pE' pH pH' Hr Hk HE HH HpE HpH HlE HlpE Hlen Hj.
  apply npv_strict_in_revenue; [assumption | |]; rewrite Hk; cbn [product_rev_ops].
  - apply F2lt_map2_plus_r; [now apply rev_ops_strict | now apply rev_ops_mono | now apply rev_ops_covers].
  - intros Hc. rewrite map2_length_min. eapply Nat.le_trans; [apply Nat.le_min_r|].
    apply carbon_covers; [now apply Nat.min_glb | exact (Hlen Hc)].
Qed.
Print Assumptions C11_npv_price_strict_cogen_heat.

(* a zero-rate tax credit, zero fees, zero incentives and a zero grant leave capital cost unchanged *)
Theorem C11_neutral_adjustments : forall k : cost_in,
  k_ritc k == 0 -> k_flat k == 0 -> k_other k == 0 -> k_grant k == 0 -> ccap k == ccap_pre k.
Proof. exact neutral_adjustments. Qed.
Print Assumptions C11_neutral_adjustments.

(* on scalars only: adding a zero gain to every yearly energy, and zero to a CAPEX or an OPEX, changes nothing
   (the clause on the add-on cash-flow model follows) *)
Theorem C11_neutral_addon : forall (e : list Q) (capex opex : Q),
  Forall2 Qeq (addon_energy 0 e) e /\ capex + 0 == capex /\ opex + 0 == opex.
Proof.
  intros e capex opex. split; [|split; ring]. unfold addon_energy. rewrite <- (map_id e) at 2. apply F2_map. intros x. ring.
Qed.
Print Assumptions C11_neutral_addon.

(* the same on the cash-flow model of EconomicsAddOns.Calculate (the one the C04 correspondence evaluates against the
   code's own AddOn / Project cash-flow vectors): an add-on with zero CAPEX, OPEX, gains and profit has an all-zero
   cash flow, and the project cash flow with it equals, year by year, the project cash flow without it *)
Theorem C11_zero_addon_cashflow : forall a : addon_in,
  a_capex a == 0 -> a_opex a == 0 -> a_egain a == 0 -> a_hgain a == 0 -> a_profit a == 0 ->
  allzero (addon_cashflow a).
Proof.
  intros a Hc Ho He Hh Hp. apply Forall_app. split; [|now apply zero_addon_revenue].
  apply allzero_repeat. rewrite Hc. unfold Qdiv. ring.
Qed.
Print Assumptions C11_zero_addon_cashflow.

Theorem C11_zero_addon_project : forall a : addon_in,
  a_capex a == 0 -> a_opex a == 0 -> a_egain a == 0 -> a_hgain a == 0 -> a_profit a == 0 ->
  Forall2 Qeq (addon_project_cashflow a) (base_project_cashflow a).
Proof. exact zero_addon_project_cashflow. Qed.
Print Assumptions C11_zero_addon_project.

(* ... so the project's NPV (every discount rate) and its cumulative cash flow (every year) are unchanged as well *)
Theorem C11_zero_addon_npv : forall (a : addon_in) (r : Q),
  a_capex a == 0 -> a_opex a == 0 -> a_egain a == 0 -> a_hgain a == 0 -> a_profit a == 0 ->
  npv r (addon_project_cashflow a) == npv r (base_project_cashflow a).
Proof. intros a r Hc Ho He Hh Hp. now rewrite (zero_addon_project_cashflow a Hc Ho He Hh Hp). Qed.
Print Assumptions C11_zero_addon_npv.

Theorem C11_zero_addon_cumulative : forall a : addon_in,
  a_capex a == 0 -> a_opex a == 0 -> a_egain a == 0 -> a_hgain a == 0 -> a_profit a == 0 ->
  Forall2 Qeq (running (addon_project_cashflow a)) (running (base_project_cashflow a)).
Proof. intros a Hc Ho He Hh Hp. now rewrite (zero_addon_project_cashflow a Hc Ho He Hh Hp). Qed.
Print Assumptions C11_zero_addon_cumulative.

(* ... and the same payback period (the code's payback loop, Python's cum[-1] wrap-around included) *)
Theorem C11_zero_addon_payback : forall a : addon_in,
  a_capex a == 0 -> a_opex a == 0 -> a_egain a == 0 -> a_hgain a == 0 -> a_profit a == 0 ->
  payback (running (addon_project_cashflow a)) == payback (running (base_project_cashflow a)).
Proof. intros a Hc Ho He Hh Hp. now rewrite (zero_addon_project_cashflow a Hc Ho He Hh Hp). Qed.
Print Assumptions C11_zero_addon_payback.

(* ... and the same project VIR and MOIC (adjusted CAPEX = CCap + add-on CAPEX, adjusted OPEX = Coam + add-on OPEX) *)
Theorem C11_zero_addon_vir : forall (a : addon_in) (r : Q),
  a_capex a == 0 -> a_opex a == 0 -> a_egain a == 0 -> a_hgain a == 0 -> a_profit a == 0 ->
  vir (npv r (addon_project_cashflow a)) (a_ccap a + a_capex a) == vir (npv r (base_project_cashflow a)) (a_ccap a).
Proof.
  intros a r Hc Ho He Hh Hp. unfold vir. apply Qplus_comp; [reflexivity|].
  apply Qdiv_comp; [now rewrite (zero_addon_project_cashflow a Hc Ho He Hh Hp) | ring [Hc]].
Qed.
Print Assumptions C11_zero_addon_vir.

Theorem C11_zero_addon_moic : forall (a : addon_in) (life : nat),
  a_capex a == 0 -> a_opex a == 0 -> a_egain a == 0 -> a_hgain a == 0 -> a_profit a == 0 ->
  moic (running (addon_project_cashflow a)) (a_ccap a + a_capex a) (a_coam a + a_opex a) life
  == moic (running (base_project_cashflow a)) (a_ccap a) (a_coam a) life.
Proof.
  intros a life Hc Ho He Hh Hp. unfold moic.
  apply Qdiv_comp; [now rewrite (zero_addon_project_cashflow a Hc Ho He Hh Hp) | ring [Hc Ho]].
Qed.
Print Assumptions C11_zero_addon_moic.

(* the neutral tax credit / fees / incentives / grant carried through to the results: the project cash flow (every year),
   its NPV (every discount rate) and the payback period computed from the adjusted capital cost equal those computed from
   the unadjusted one *)
Theorem C11_neutral_adjustments_results : forall (k : cost_in) (c : cf_in) (r : Q),
  k_ritc k == 0 -> k_flat k == 0 -> k_other k == 0 -> k_grant k == 0 ->
  Forall2 Qeq (total_cashflow (with_ccap c (ccap k))) (total_cashflow (with_ccap c (ccap_pre k))) /\
  npv r (total_cashflow (with_ccap c (ccap k))) == npv r (total_cashflow (with_ccap c (ccap_pre k))) /\
  payback (running (total_cashflow (with_ccap c (ccap k)))) == payback (running (total_cashflow (with_ccap c (ccap_pre k)))).
Proof.
  intros k c r H1 H2 H3 H4. pose proof (cashflow_ccap_ext c _ _ (neutral_adjustments k H1 H2 H3 H4)) as E.
  repeat split; [assumption | now apply npv_ext | now apply payback_ext, running_ext].
Qed.
Print Assumptions C11_neutral_adjustments_results.

(* multiplying every year's cash flow by k (all costs and all sale prices x k) multiplies NPV by k, at every discount rate *)
Theorem C11_npv_homogeneous : forall (r k : Q) (cf : list Q), npv r (map (Qmult k) cf) == k * npv r cf.
Proof. intros r k. induction cf as [|x cf IH]; simpl; [ring|]. rewrite IH. unfold Qdiv. ring. Qed.
Print Assumptions C11_npv_homogeneous.

(* ... and leaves the payback period unchanged (k > 0): the cumulative cash flow is multiplied by k in every year *)
Theorem C11_payback_scale_invariant : forall (k : Q) (cum : list Q), 0 < k -> payback (map (Qmult k) cum) == payback cum.
Proof. intros k cum Hk. unfold payback. now rewrite last_scale, payback_loop_scale. Qed.
Print Assumptions C11_payback_scale_invariant.

Example ex_scale : let c := Verif.Props.C01.ex1 in
  let '(a, b, _) := lcoe_exec c in let '(a3, b3, _) := lcoe_exec (scale_costs 3 c) in a3 == 3 * a /\ b3 == 3 * b /\ 0 < a.
Proof. vm_compute. repeat split; discriminate. Qed.

(* a heat plant with carbon revenue meets the hypotheses of C11_npv_price_strict_heat, and NPV does rise *)
Example ex_heat_strict :
  let c := {| ci_kind := KHeat; ci_cy := 2; ci_ccap := 30; ci_coam := 1; ci_carbon := true; ci_gi := 1 # 2; ci_ni := 1 # 3;
              ci_eE := []; ci_eH := [1000000; 900000; 800000]; ci_eC := [];
              ci_pE := []; ci_pH := [2; 2; 2]; ci_pC := []; ci_pCarb := [1 # 100; 1 # 100; 1 # 100] |} in
  nonneg (ci_eH c) /\ (length (ci_eH c) <= length (ci_pCarb c))%nat /\
  npv (7 # 100) (total_cashflow (with_prices c (ci_pE c) [2; 2; 2] (ci_pC c)))
    < npv (7 # 100) (total_cashflow (with_prices c (ci_pE c) [2; 3; 2] (ci_pC c))).
Proof.
  cbv zeta. split; [|split].
  - unfold nonneg. cbn [ci_eH]. repeat (apply Forall_cons; [discriminate|]). apply Forall_nil.
  - cbn [ci_eH ci_pCarb length]. apply le_n.
  - vm_compute. reflexivity.
Qed.

(* a co-generation project with a zero add-on: the base cash flow is not trivial (length 5, non-zero years) *)
Example ex_zero_addon :
  let a := {| a_kind := KCogen; a_cy := 2; a_ccap := 40; a_coam := 3; a_capex := 0; a_opex := 0; a_egain := 0; a_hgain := 0;
              a_profit := 0; a_net := [5000000; 4000000; 3000000]; a_heat := [2000000; 2000000; 2000000];
              a_pE := [1; 1; 1]; a_pH := [1 # 2; 1 # 2; 1 # 2] |} in
  length (base_project_cashflow a) = 5%nat /\ nth 2 (base_project_cashflow a) 0 == 3 /\
  nth 2 (addon_project_cashflow a) 0 == 3 /\ nth 0 (addon_project_cashflow a) 0 == - (20).
Proof. cbv zeta. vm_compute. repeat split. Qed.

(* a cumulative cash flow with a crossing: payback 2 + 10/(5+10), the same after scaling by 7 *)
Example ex_payback_scale : payback [-(30); -(10); 5; 20] == 2 + (2 # 3) /\ payback (map (Qmult 7) [-(30); -(10); 5; 20]) == 2 + (2 # 3).
Proof. vm_compute. split; reflexivity. Qed.
