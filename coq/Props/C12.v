(* Props/C12.v - Input-file layout is irrelevant.
   The statements, each with the last step of its proof; the lemmas are in Proofs/.  The model (Model/UTokenizer.v) is
   GeoPHIRESUtils.read_input_file over texts of Unicode code points ([string] = list N, [String] = cons, $"abc" = the text
   of an ASCII literal): text-mode newline decoding, readlines, strip with the full str.isspace() table, comment
   prefixes, split(','), ParameterEntry, and Python's insertion-ordered dict; Model/Utf8.v is the UTF-8 decoding of the
   file's bytes (errors included). *)
From Coq Require Import String NArith List Bool Permutation Lia ZifyBool.
From Verif Require Import Base.UStr Model.UTokenizer Model.Utf8 Proofs.UTokenizerProofs Proofs.Utf8Proofs Gen.InputParamUses Proofs.TokenizerUses.
Import ListNotations.
Close Scope string_scope.   (* opened by the generated table *)
Open Scope list_scope.
Open Scope N_scope.

Notation string := ustring (only parsing).
Notation String := cons (only parsing).
Notation "$ s" := (us s%string) (at level 0, s at level 0, only parsing).

(* what a lookup returns, for EVERY list of lines: the last line carrying that name *)
Theorem C12_lookup_is_last_occurrence : forall (ls : list string) (k : string),
  dict_get k (read_lines ls) = find_last k (parse_lines ls).
Proof. intros ls k. apply read_lines_get. Qed.
Print Assumptions C12_lookup_is_last_occurrence.

(* order of parameter lines: every permutation of a file with distinct names gives the same lookups *)
Theorem C12_permutation : forall ls ls' : list string,
  Permutation ls ls' -> NoDup (map e_name (parse_lines ls)) ->
  forall k, dict_get k (read_lines ls) = dict_get k (read_lines ls').
Proof. exact permutation_invariance. Qed.
Print Assumptions C12_permutation.

(* with duplicates: any rearrangement (insertion, deletion, reordering of other lines) that leaves the
   occurrences of name k in their own relative order leaves the lookup of k unchanged *)
Theorem C12_reorder_with_duplicates : forall (ls ls' : list string) (k : string),
  filter (fun e => US.eqb k (e_name e)) (parse_lines ls) = filter (fun e => US.eqb k (e_name e)) (parse_lines ls') ->
  dict_get k (read_lines ls) = dict_get k (read_lines ls').
Proof. exact reorder_with_duplicates. Qed.
Print Assumptions C12_reorder_with_duplicates.

(* when a parameter appears more than once the last occurrence governs *)
Theorem C12_last_wins : forall (ls1 ls2 : list string) (k : string),
  dict_get k (read_lines (ls1 ++ ls2)%list) =
  match dict_get k (read_lines ls2) with Some e => Some e | None => dict_get k (read_lines ls1) end.
Proof. exact last_wins. Qed.
Print Assumptions C12_last_wins.

(* iteration order of the dictionary (what the add-on block sees): for any class p of names, if the lines of
   class p keep their relative order then the keys of class p are iterated in the same order *)
Theorem C12_block_order : forall (p : string -> bool) (ls ls' : list string),
  filter p (map e_name (parse_lines ls)) = filter p (map e_name (parse_lines ls')) ->
  filter p (keys (read_lines ls)) = filter p (keys (read_lines ls')).
Proof. intros p ls ls'. apply block_order_preserved. Qed.
Print Assumptions C12_block_order.

(* blank lines, lines without a comma and comment lines (#, --, * after optional indentation) are ignored *)
Theorem C12_comment_blank : forall (l1 l2 : list string) (c : string),
  (allws c = true \/ nocomma c = true \/
   exists p m x, allws p = true /\ (m = [HASH] \/ m = [DASH; DASH] \/ m = [STAR]) /\ c = (p ++ m ++ x)%list) ->
  read_lines (l1 ++ c :: l2)%list = read_lines (l1 ++ l2)%list.
Proof.
  intros l1 l2 c H. apply ignored_line. destruct H as [H | [H | (p & m & x & Hp & Hm & ->)]];
    [now apply blank_line | now apply commaless_line | now apply comment_line].
Qed.
Print Assumptions C12_comment_blank.

(* whitespace around name and value: any amount of any of the 29 code points str.strip() removes (U+00A0, U+2003, U+3000 ...) *)
Theorem C12_whitespace : forall p1 p2 p3 p4 d v : string,
  allws p1 = true -> allws p2 = true -> allws p3 = true -> allws p4 = true ->
  nocomma d = true -> nocomma v = true ->
  core (parse_line (p1 ++ d ++ p2 ++ String COMMA (p3 ++ v ++ p4))) = core (parse_line (d ++ String COMMA v)).
Proof.
  intros p1 p2 p3 p4 d v H1 H2 H3 H4 Hd Hv. rewrite (app_assoc d), (app_assoc p1).
  rewrite !parse_line_two_core by (assumption || now apply nocomma_pad). now rewrite is_comment_pad, !strip_pad.
Qed.
Print Assumptions C12_whitespace.

(* a trailing comment after the value (any text, commas included) changes neither name nor value *)
Theorem C12_trailing_comment : forall d v c : string, nocomma d = true -> nocomma v = true ->
  name_val (parse_line (d ++ String COMMA (v ++ String COMMA c))) = name_val (parse_line (d ++ String COMMA v)).
Proof.
  intros d v c Hd Hv. now rewrite parse_line_three, parse_line_two.
Qed.
Print Assumptions C12_trailing_comment.

(* both decorations at once *)
Theorem C12_decorated_line : forall p1 p2 p3 p4 d v c : string,
  allws p1 = true -> allws p2 = true -> allws p3 = true -> allws p4 = true ->
  nocomma d = true -> nocomma v = true ->
  name_val (parse_line (p1 ++ d ++ p2 ++ String COMMA (p3 ++ v ++ p4 ++ String COMMA c)))
  = name_val (parse_line (d ++ String COMMA v)).
Proof. exact decorated_line. Qed.
Print Assumptions C12_decorated_line.

(* and the undecorated line reads as written (so the statements above are not about None = None) *)
Theorem C12_clean_line : forall d v : string,
  nocomma d = true -> nocomma v = true -> is_comment (lstrip d) = false -> lstrip d <> [] ->
  name_val (parse_line (d ++ String COMMA v)) = Some (strip d, strip v).
Proof. intros d v Hd Hv Hc _. now apply clean_line. Qed.
Print Assumptions C12_clean_line.

(* line-ending style: LF, CRLF or CR files, last line terminated or not, read as the same list of lines *)
Theorem C12_crlf : forall (e : eol) (ls : list string) (last : string),
  Forall (fun l => noeol l = true) ls -> noeol last = true ->
  read_text (join_lines e ls ++ last) = read_lines (ls ++ [last])%list.
Proof. exact line_endings_irrelevant. Qed.
Print Assumptions C12_crlf.

(* the client's override parameters are appended after the base file and govern, for EVERY base text (terminated
   or not, any line-ending style) and every list of overrides (code after fix e85b257) ... *)
Theorem C12_client_override : forall (base : string) (params : list (string * string)) (k : string),
  dict_get k (read_text (client_text base params)) =
  match dict_get k (read_text (cat (map param_line params))) with
  | Some e => Some e
  | None => dict_get k (read_text base)
  end.
Proof. exact client_override. Qed.
Print Assumptions C12_client_override.

(* ... and each override reads as written *)
Theorem C12_client_override_value : forall (params : list (string * string)) (k v : string),
  Forall (fun p => clean_param p = true) params -> NoDup (map fst params) -> In (k, v) params ->
  option_map e_sval (dict_get k (read_text (cat (map param_line params)))) = Some (strip v).
Proof. exact client_param_value. Qed.
Print Assumptions C12_client_override_value.

(* the code before the fix (client_text_pinned: overrides written directly after base_file.readlines()) does not:
   with a base file whose last line is not terminated the first override is glued to that line.  Witness in
   corpus/C12/client_no_final_newline.json: a regression of the fix is reported with this replay. *)
Theorem C12_client_override_pinned_refuted : exists (base : string) (params : list (string * string)) (k v : string),
  In (k, v) params /\ clean_param (k, v) = true /\ dict_get k (read_text (client_text_pinned base params)) = None
  /\ option_map e_sval (dict_get $"A" (read_text (client_text_pinned base params))) = Some $"1B".
Proof. exists $"A, 1", [($"B", $"2")], $"B", $"2". repeat split; vm_compute; auto. Qed.
Print Assumptions C12_client_override_pinned_refuted.

(* every syntactic use of Model.InputParameters in the current source (table regenerated on each run) is blind to
   the order of the keys, except the add-on block and the renaming of one deprecated key *)
Theorem C12_lookup_only : forall u, In u InputParamUses.uses -> use_ok u = true.
Proof. exact uses_ok. Qed.
Print Assumptions C12_lookup_only.

(* the table is not empty for the wrong reason: it contains the population by read_input_file in Model.__init__,
   the per-module lookups and the add-on block *)
Theorem C12_uses_cover :
  existsb is_population InputParamUses.uses = true /\ existsb is_module_lookup InputParamUses.uses = true
  /\ existsb addon_block InputParamUses.uses = true.
Proof. exact uses_cover. Qed.
Print Assumptions C12_uses_cover.

(* list-valued lines ("Gradients, 50, 40, 30", "Thicknesses, 1, 1": ReadParameter re-reads them from the raw line): a
   trailing "-- comment" - ANY text, commas and digits included - after a comma and optional whitespace changes none of
   the fields handed to float(), provided the line has no "--" before it *)
Theorem C12_list_trailing_comment : forall a p c : string,
  before_dd (a ++ COMMA :: p) = a ++ COMMA :: p -> allws p = true ->
  list_fields (a ++ COMMA :: p ++ DASH :: DASH :: c) = list_fields a.
Proof. exact list_trailing_comment. Qed.
Print Assumptions C12_list_trailing_comment.

Example C12_example_list :
  list_fields $"Thicknesses, 1, 1, -- equal, 0.5 km each, really" = [$"1"; $"1"]
  /\ list_fields $"Gradients, 50, 40 ,30,--x" = [$"50"; $"40"; $"30"]
  /\ before_dd $"Thicknesses, 1, 1, " = $"Thicknesses, 1, 1, ".
Proof. vm_compute. repeat split; reflexivity. Qed.

(* a caching client in front of the reader: with the real cache key (the file PATH) every history of requests over any
   set of files gets, request by request, what a fresh run of that request's file gives - whatever is observed of the
   dictionary ([view]).  Files are not edited during the history ([fs] is a function: edits are property C08). *)
Theorem C12_cache_key_separates : forall (Res : Type) (fs : string -> string) (view : dict -> Res) (history : list string),
  serve string string Res key_path US.eqb (fun p => view (read_text (fs p))) [] history
  = map (fun p => view (read_text (fs p))) history.
Proof.
  intros Res fs view history. apply serve_transparent; [|constructor].
  unfold key_path. intros a b E. apply US.eqb_eq in E. now subst.
Qed.
Print Assumptions C12_cache_key_separates.

(* an order-insensitive key (the set of stripped non-blank lines) does NOT separate files that read differently: the
   40-then-60 and 60-then-40 files share it and the second request is answered with the first one's result *)
Theorem C12_cache_key_lineset_refuted :
  exists t1 t2 : string,
    lineset_eqb (key_lineset t1) (key_lineset t2) = true
    /\ option_map e_sval (dict_get $"Gradient 1" (read_text t1)) = Some $"60"
    /\ option_map e_sval (dict_get $"Gradient 1" (read_text t2)) = Some $"40"
    /\ serve string (list string) (option string) key_lineset lineset_eqb
         (fun t => option_map e_sval (dict_get $"Gradient 1" (read_text t))) [] [t1; t2]
       = [Some $"60"; Some $"60"].
Proof.
  exists ($"Gradient 1, 40" ++ [LF] ++ $"Gradient 1, 60" ++ [LF]), ($"Gradient 1, 60" ++ [LF] ++ $"Gradient 1, 40" ++ [LF]).
  repeat split; vm_compute; reflexivity.
Qed.
Print Assumptions C12_cache_key_lineset_refuted.

Example C12_example_cache :
  cache_check [$"/t/a.txt"; $"/t/b.txt"; $"/t/a.txt"; $"/t/c.txt"] [0; 1; 0; 3] = true.
Proof. vm_compute. reflexivity. Qed.

(* the whitespace of the model is EXACTLY the 29 code points str.isspace() accepts (the list is compared with the
   running interpreter's table on every check) *)
Theorem C12_whitespace_table : forall c : N, is_ws c = true <-> In c ws_points.
Proof.
  intros c. split.
  - unfold is_ws, ws_points. cbn [In]. lia.
  - intros H. cbn in H. repeat (destruct H as [<- | H]; [reflexivity|]). destruct H.
Qed.
Print Assumptions C12_whitespace_table.

(* the file is BYTES: every text a Python str can hold (any Unicode scalar values), UTF-8 encoded, is read exactly as
   the tokenizer reads that text - so all statements above about read_text / read_lines are statements about files *)
Theorem C12_utf8_file : forall t : string,
  forallb scalar t = true -> read_file (utf8_encode t) = ReadOk (read_text t).
Proof. intros t H. unfold read_file. now rewrite decode_encode. Qed.
Print Assumptions C12_utf8_file.

(* decoding is strict and total failure: a byte that cannot start a character (a stray continuation byte 0x80-0xBF,
   0xC0, 0xC1, 0xF5-0xFF) ANYWHERE after a well-formed prefix makes the whole file unreadable (UnicodeDecodeError) -
   it is never skipped, replaced or read as latin-1 *)
Theorem C12_decode_error : forall (t : string) (b : N) (rest : list N),
  forallb scalar t = true -> (128 <=? b) && (b <=? 193) || (245 <=? b) = true ->
  read_file (utf8_encode t ++ b :: rest) = DecodeError.
Proof. intros t b rest H B. unfold read_file. now rewrite decode_encode_app, decode_bad_lead. Qed.
Print Assumptions C12_decode_error.

Example C12_example_utf8 :
  utf8_encode [65; 160; 8195; 12288; 128512] = [65; 194; 160; 226; 128; 131; 227; 128; 128; 240; 159; 152; 128]
  /\ forallb scalar [65; 160; 8195; 12288; 128512] = true
  /\ map is_ws [160; 8195; 12288; 5760; 8239; 65279; 8203] = [true; true; true; true; true; false; false]
  /\ read_file ($"A, 1" ++ [160; 10]) = DecodeError            (* a latin-1 NBSP byte is not UTF-8 *)
  /\ read_file [237; 160; 128] = DecodeError /\ read_file [192; 128] = DecodeError /\ read_file [226; 128] = DecodeError.
Proof. vm_compute. repeat split; reflexivity. Qed.

Example C12_example_file :
  map (fun p => (fst p, e_sval (snd p)))
      (read_text ($"Reservoir Depth, 3, -- km" ++ [CR; LF] ++ $"# c" ++ [LF] ++ [LF] ++ [8195] ++ $" Gradient 1" ++ [160] ++ $",  50 " ++ [12288]
                  ++ [CR] ++ $"* x,1" ++ [LF] ++ $"Reservoir Depth,4"))
  = [($"Reservoir Depth", $"4"); ($"Gradient 1", $"50")].
Proof. vm_compute. reflexivity. Qed.

Example C12_example_permutation :
  let ls := [$"A, 1"; $"B, 2"; $"C, 3"] in
  Permutation ls [$"C, 3"; $"A, 1"; $"B, 2"] /\ NoDup (map e_name (parse_lines ls)).
Proof.
  split.
  - apply Permutation_sym. change [$"C, 3"; $"A, 1"; $"B, 2"] with ([$"C, 3"] ++ [$"A, 1"; $"B, 2"]).
    change [$"A, 1"; $"B, 2"; $"C, 3"] with ([$"A, 1"; $"B, 2"] ++ [$"C, 3"]). apply Permutation_app_comm.
  - vm_compute. repeat constructor; cbn; intuition discriminate.
Qed.

Example C12_example_decorated :
  name_val (parse_line ([8195; 160] ++ $"Gradient 1" ++ [12288] ++ String COMMA ($" " ++ $"50" ++ [8201; 32] ++ String COMMA $" -- degC/km, really")))
  = Some ($"Gradient 1", $"50")
  /\ allws [8195; 160] = true /\ allws [8201; 32] = true /\ nocomma $"Gradient 1" = true /\ is_comment (lstrip $"Gradient 1") = false.
Proof. vm_compute. repeat split. Qed.

Example C12_example_duplicates :
  let ls := [$"A, 1"; $"B, 2"; $"A, 3"] in let ls' := [$"B, 2"; $"A, 1"; $"# x"; $"A, 3"] in
  filter (fun e => US.eqb $"A" (e_name e)) (parse_lines ls) = filter (fun e => US.eqb $"A" (e_name e)) (parse_lines ls')
  /\ option_map e_sval (dict_get $"A" (read_lines ls)) = Some $"3".
Proof. vm_compute. split; reflexivity. Qed.

Example C12_example_block :
  let p := fun k : string => US.eqb (firstn 5 k) $"AddOn" in
  let ls := [$"AddOn CAPEX 1, 5"; $"X, 1"; $"AddOn CAPEX 2, 7"] in let ls' := [$"AddOn CAPEX 1, 5"; $"AddOn CAPEX 2, 7"; $"X, 1"] in
  filter p (map e_name (parse_lines ls)) = filter p (map e_name (parse_lines ls'))
  /\ filter p (keys (read_lines ls')) = [$"AddOn CAPEX 1"; $"AddOn CAPEX 2"].
Proof. vm_compute. split; reflexivity. Qed.

Example C12_example_crlf :
  Forall (fun l => noeol l = true) [$"A, 1"; $"B, 2"] /\ noeol $"C, 3" = true
  /\ dump (read_text (join_lines EolCR [$"A, 1"; $"B, 2"] ++ $"C, 3")) = dump (read_text (join_lines EolCRLF [$"A, 1"; $"B, 2"; $"C, 3"])).
Proof. split; [repeat constructor|]. split; vm_compute; reflexivity. Qed.

Example C12_example_client_params :
  let ps := [($"Gradient 1", $"60"); ($"End-Use Option", $"2")] in
  Forall (fun p => clean_param p = true) ps /\ NoDup (map fst ps).
Proof. split; [repeat constructor | repeat constructor; cbn; intuition discriminate]. Qed.

Example C12_example_client :
  option_map e_sval (dict_get $"Gradient 1" (read_text (client_text ($"Gradient 1, 50" ++ [CR]) [($"Gradient 1", $"60")]))) = Some $"60"
  /\ option_map e_sval (dict_get $"Gradient 1" (read_text (client_text $"Gradient 1, 50" [($"Gradient 1", $"60")]))) = Some $"60"
  /\ option_map e_sval (dict_get $"Gradient 1" (read_text (client_text_pinned $"Gradient 1, 50" [($"Gradient 1", $"60")]))) = Some $"50Gradient 1".
Proof. vm_compute. repeat split; reflexivity. Qed.
