(* Props/C13.v - Monte Carlo iterations are independent draws from the requested distributions.
   The statements, each with a short proof from the lemmas of Proofs/MonteCarloProofs.v and Proofs/MCSettingsProofs.v.
   A raw draw is a pair (stream, position); a schedule is the list of worker ids that take tasks 0,1,2,...
   (any number of workers, any assignment). *)
From Coq Require Import List Arith Bool QArith Qminmax String Ascii Lia Lqa.
From Verif Require Import Model.MonteCarlo Proofs.MonteCarloProofs Model.MCRows Model.MCSettings Proofs.MCSettingsProofs.
Import ListNotations.
Open Scope nat_scope.
Local Notation length := List.length (only parsing).   (* String.length is imported too *)

(* np.random.seed() at the start of every work package (the code as it is now): with pairwise distinct
   task seeds no raw draw is consumed twice - for every number of draws per task, parent state, schedule. *)
Theorem C13_fresh_no_reuse :
  forall seeds d g0 sched,
  (forall i j, i < length sched -> j < length sched -> seeds i = seeds j -> i = j) ->
  forall i j ki kj, i < length sched -> j < length sched -> ki < d -> kj < d ->
    nth ki (nth i (run_pool FreshPerTask seeds d g0 sched) []) (0, 0)
    = nth kj (nth j (run_pool FreshPerTask seeds d g0 sched) []) (0, 0) ->
    i = j /\ ki = kj.
Proof.
  intros seeds d g0 sched Hinj i j ki kj Hi Hj Hki Hkj E.
  rewrite !fresh_draw in E by assumption. injection E as Es Ek. split; [apply Hinj; assumption | exact Ek].
Qed.
Print Assumptions C13_fresh_no_reuse.

Theorem C13_fresh_vectors_distinct :
  forall seeds d g0 sched, 0 < d ->
  (forall i j, i < length sched -> j < length sched -> seeds i = seeds j -> i = j) ->
  forall i j, i < length sched -> j < length sched -> i <> j ->
    nth i (run_pool FreshPerTask seeds d g0 sched) [] <> nth j (run_pool FreshPerTask seeds d g0 sched) [].
Proof.
  intros seeds d g0 sched Hd Hinj i j Hi Hj Hne E. apply Hne, Hinj; try assumption.
  apply (f_equal (fun v => nth 0 v (0, 0))) in E. rewrite !fresh_draw in E by assumption. injection E as Es. exact Es.
Qed.
Print Assumptions C13_fresh_vectors_distinct.

(* forked copies of the parent's generator, never reseeded (the code before 883a02d): the clause
   "draws are not replicated across workers" is refuted for EVERY schedule in which two workers run a task *)
Theorem C13_forkcopy_refuted :
  forall seeds d g0 sched w1 w2, w1 <> w2 -> In w1 sched -> In w2 sched ->
  exists i j, i <> j /\ i < length sched /\ j < length sched /\
    nth i (run_pool ForkCopy seeds d g0 sched) [] = nth j (run_pool ForkCopy seeds d g0 sched) [].
Proof.
  intros seeds d g0 sched w1 w2 Hne H1 H2.
  destruct (first_task_rank w1 sched H1) as (i & Hi & Ni & Ri), (first_task_rank w2 sched H2) as (j & Hj & Nj & Rj).
  exists i, j. split; [congruence|]. split; [exact Hi|]. split; [exact Hj|].
  rewrite !forkcopy_nth, Ri, Rj by assumption. reflexivity.
Qed.
Print Assumptions C13_forkcopy_refuted.

(* ... and exactly which iterations coincide: those with the same rank on their worker *)
Theorem C13_forkcopy_pattern :
  forall seeds d g0 sched i j, 0 < d -> i < length sched -> j < length sched ->
  (nth i (run_pool ForkCopy seeds d g0 sched) [] = nth j (run_pool ForkCopy seeds d g0 sched) []
   <-> rank sched i = rank sched j).
Proof.
  intros seeds d g0 sched i j Hd Hi Hj. rewrite !forkcopy_nth by assumption. split.
  - intros E. apply span_inj in E; [nia | exact Hd].
  - intros ->. reflexivity.
Qed.
Print Assumptions C13_forkcopy_pattern.

(* supports of the documented transforms *)
Theorem C13_support_uniform :
  forall lo hi u : Q, (lo <= hi -> 0 <= u -> u < 1 -> lo <= uniform_t lo hi u /\ uniform_t lo hi u <= hi)%Q.
Proof. intros lo hi u H0 H1 H2. apply uniform_support; [exact H0 | exact H1 | apply Qlt_le_weak, H2]. Qed.
Print Assumptions C13_support_uniform.

Theorem C13_support_triangular :
  forall sqrtf : Q -> Q,
  (forall x, 0 <= x -> 0 <= sqrtf x)%Q ->
  (forall x y, 0 <= x -> x <= y -> sqrtf x <= sqrtf y)%Q ->
  (forall a, 0 <= a -> sqrtf (a * a) == a)%Q ->
  forall l m r u : Q, (l <= m -> m <= r -> l < r -> 0 <= u -> u <= 1 ->
    l <= triangular_t sqrtf l m r u /\ triangular_t sqrtf l m r u <= r)%Q.
Proof. exact triangular_support. Qed.
Print Assumptions C13_support_triangular.

Theorem C13_support_binomial : forall p us, binomial_t p us <= length us.
Proof. induction us as [|u r IH]; cbn [binomial_t length]; [lia|]. destruct (Qle_bool p u); lia. Qed.
Print Assumptions C13_support_binomial.

Theorem C13_support_lognormal :
  forall expf : Q -> Q, (forall z, 0 < expf z)%Q -> forall mu sigma z : Q, (0 < lognormal_t expf (mu + sigma * z))%Q.
Proof. intros expf H mu sigma z. apply H. Qed.
Print Assumptions C13_support_lognormal.

(* the boolean test evaluated on the rows of real runs means what it should *)
Theorem C13_support_checker_sound :
  forall a b c x,
  (in_support DUniform [a; b] x = true -> Qmin a b <= x /\ x <= Qmax a b)%Q /\
  (in_support DTriangular [a; b; c] x = true -> a <= x /\ x <= c)%Q /\
  (in_support DLognormal [a; b] x = true -> 0 < x)%Q /\
  (in_support DBinomial [a; b] x = true -> 0 <= x /\ x <= a /\ exists k : Z, x == inject_Z k)%Q.
Proof.
  exact (fun a b c x => conj (in_support_uniform a b x) (conj (in_support_triangular a b c x)
          (conj (in_support_lognormal a b x) (in_support_binomial a b x)))).
Qed.
Print Assumptions C13_support_checker_sound.

(* result file: under EVERY schedule of the lock protocol, for the current code (early = true) and for the code before
   1d8733c (early = false), the rows are exactly the work packages that ended in DoneOk, each once *)
Theorem C13_rows_are_released_packages :
  forall early sched,
  NoDup (file (lrun_gen early linit sched)) /\
  forall t, In t (file (lrun_gen early linit sched)) <-> phases (lrun_gen early linit sched) t = PDoneOk.
Proof. intros early sched. exact (file_inv_run early sched linit file_inv_init). Qed.
Print Assumptions C13_rows_are_released_packages.

(* current code (row flushed while the lock is believed held): one row per finished work package under EVERY
   interleaving in which nobody times out - whatever the lock file contained at the start (a stale lock left by a killed
   run) and with take-overs of stale locks allowed; mutual exclusion of the lock is not needed *)
Theorem C13_row_count_partial :
  forall l0 sched, Forall (fun s => snd s <> Timeout) sched ->
  let st := lrun (LS l0 (fun _ => PIdle) []) sched in
  forall t, finished (phases st t) = true -> In t (file st).
Proof. exact flush_no_loss_from. Qed.
Print Assumptions C13_row_count_partial.

(* the unconditional clause stays refuted by the 10 s time-out: the work package finishes, its row is dropped *)
Theorem C13_row_count_timeout_refuted :
  exists sched, phases (lrun linit sched) 0 = PDoneLost /\ phases (lrun linit sched) 1 = PDoneOk /\
    file (lrun linit sched) = [1].
Proof. exact (ex_intro _ timeout_schedule lock_timeout_loses_row). Qed.
Print Assumptions C13_row_count_timeout_refuted.

(* the code before 1d8733c: an interleaving of two work packages, no time-out, both finish, one row in the file
   (the same interleaving is forced on the real code by the check; regression seed corpus/C13/lock_double_acquire) *)
Theorem C13_row_count_pinned_refuted :
  exists sched, Forall (fun s => snd s = Step) sched /\
    phases (lrun_pinned linit sched) 0 = PDoneLost /\ phases (lrun_pinned linit sched) 1 = PDoneOk /\
    file (lrun_pinned linit sched) = [1].
Proof. exact (ex_intro _ double_acquire_schedule lock_loses_row_pinned). Qed.
Print Assumptions C13_row_count_pinned_refuted.

(* ... it needed mutual exclusion, which the lock protocol does not give *)
Theorem C13_row_count_pinned_partial :
  forall sched, mutex_run_pinned linit sched ->
  forall t, finished (phases (lrun_pinned linit sched) t) = true -> In t (file (lrun_pinned linit sched)).
Proof. exact (mutex_no_loss false). Qed.
Print Assumptions C13_row_count_pinned_partial.

(* the settings file as MC_GeoPHIRES3.main reads it, string level: every INPUT line contributes its fields, every OUTPUT
   line its label, in file order, whatever else the file holds *)
Theorem C13_settings_lines_in_order :
  forall lines s, read_settings lines = Some s ->
  s_inputs s = map input_fields (filter is_input_line lines) /\
  s_outputs s = map output_field (filter is_output_line lines).
Proof. intros lines s H. exact (read_lines_lists lines settings0 s H). Qed.
Print Assumptions C13_settings_lines_in_order.

(* a line without a comma - a blank line - is an IndexError of the reader, wherever it stands *)
Theorem C13_settings_blank_line_is_error :
  forall pre post, read_settings (pre ++ String (ascii_of_nat 10) "" :: post) = None.
Proof. intros pre post. apply read_lines_error. reflexivity. Qed.
Print Assumptions C13_settings_blank_line_is_error.

(* a distribution word fires at most one distribution; when every INPUT line names one of the five, a work package makes
   exactly one numpy call per INPUT line, in file order, with the line's numeric fields in order *)
Theorem C13_one_entry_per_input :
  (forall w, List.length (dispatch w) <= 1) /\
  (forall inputs, forallb recognised inputs = true -> expected_calls inputs = map the_call inputs).
Proof. exact (conj dispatch_at_most_one expected_calls_in_order). Qed.
Print Assumptions C13_one_entry_per_input.

(* '#' (check_and_replace_mean): the first field that contains '#' is replaced by the raw second comma field of the FIRST line of the base file
   that starts with the parameter name *)
Theorem C13_mean_first_occurrence :
  forall fields pre l post i x v rest,
  first_hash fields 0 = Some i ->
  forallb (fun y => negb (prefix (hd "" fields) y)) pre = true -> prefix (hd "" fields) l = true ->
  split_char "," l = x :: v :: rest ->
  replace_mean fields (pre ++ l :: post) = Some (set_nth i v fields).
Proof.
  intros fields pre l post i x v rest Hi Hpre Hl Hs.
  unfold replace_mean. rewrite Hi, (find_first _ pre l post Hpre Hl), Hs. reflexivity.
Qed.
Print Assumptions C13_mean_first_occurrence.

(* that is the line the simulator takes the parameter from (last line whose name field is the name: C12) when no earlier
   line starts with the name and no later line defines the parameter ... *)
Theorem C13_mean_is_simulated_value_partial :
  forall name pre l post,
  forallb (fun y => negb (prefix name y)) pre = true -> forallb (fun y => negb (names_param name y)) post = true ->
  prefix name l = true -> names_param name l = true ->
  mean_source_line name (pre ++ l :: post) = Some l /\ simulated_line name (pre ++ l :: post) = Some l.
Proof. intros name pre l post H1 H2 H3 H4. split; [apply find_first | apply simulated_line_last]; assumption. Qed.
Print Assumptions C13_mean_is_simulated_value_partial.

(* ... and refuted otherwise: a parameter given twice, and a longer parameter name with the same beginning earlier in the
   file ('Reservoir Volume Option' before 'Reservoir Volume': the layout of the shipped examples) *)
Theorem C13_mean_is_simulated_value_refuted :
  (exists fields base i v, first_hash fields 0 = Some i /\ replace_mean fields base = Some (set_nth i v fields) /\
     simulated_value (hd "" fields) base = Some "160" /\ v = " 150" ++ NL1) /\
  (exists fields base i v, first_hash fields 0 = Some i /\ replace_mean fields base = Some (set_nth i v fields) /\
     simulated_value (hd "" fields) base = Some "1e9" /\ v = "4").
Proof.
  split.
  - pose (fields := ["Reservoir Temperature"; " normal"; " #"; " 5"]).
    pose (base := ["Reservoir Temperature, 150" ++ NL1; "Reservoir Temperature, 160" ++ NL1]).
    exists fields, base, 2, (" 150" ++ NL1).
    split; [|split; [|split]]; reflexivity.
  - pose (fields := ["Reservoir Volume"; " normal"; " #"; " 5e7"]).
    pose (base := ["Reservoir Volume Option,4,  --- Should be 1 2 3 or 4" ++ NL1; "Reservoir Volume,1e9,  --- [m3]" ++ NL1]).
    exists fields, base, 2, "4".
    split; [|split; [|split]]; reflexivity.
Qed.
Print Assumptions C13_mean_is_simulated_value_refuted.

Example C13_example_fresh :   (* 3 workers, 5 tasks, 2 draws each, injective seeds: ten different raw draws *)
  (forall i j : nat, 100 + i = 100 + j -> i = j) /\
  run_pool FreshPerTask (fun t => 100 + t) 2 (G 7 3) [0; 1; 2; 0; 1]
  = [[(100, 0); (100, 1)]; [(101, 0); (101, 1)]; [(102, 0); (102, 1)]; [(103, 0); (103, 1)]; [(104, 0); (104, 1)]].
Proof. split; [intros i j H; apply (Nat.add_cancel_l i j 100); exact H | vm_compute; reflexivity]. Qed.

Example C13_example_forkcopy :   (* same schedule, forked copies: tasks 0,1,2 coincide and so do 3,4 *)
  predicted_classes ForkCopy 2 [0; 1; 2; 0; 1] = [0; 0; 0; 3; 3]
  /\ predicted_classes FreshPerTask 2 [0; 1; 2; 0; 1] = [0; 1; 2; 3; 4].
Proof. split; vm_compute; reflexivity. Qed.

Example C13_example_mutex :   (* a schedule with polling that satisfies the mutual-exclusion hypothesis *)
  mutex_run_pinned linit [(0, Step); (0, Step); (1, Step); (0, Step); (1, Step); (0, Step); (1, Step); (1, Step); (1, Step); (1, Step)]
  /\ file (lrun_pinned linit [(0, Step); (0, Step); (1, Step); (0, Step); (1, Step); (0, Step); (1, Step); (1, Step); (1, Step); (1, Step)]) = [0; 1].
Proof.
  split; [|vm_compute; reflexivity].
  unfold mutex_run_pinned. cbn [mutex_run_gen].
  (* before each step, in the state the steps so far lead to: the others are idle, 0 and 1 are not both inside *)
  repeat split; (apply mutex_state_two; [intros t|]; reflexivity).
Qed.

Example C13_example_flush :   (* the double acquisition, current code: no time-out, both rows *)
  Forall (fun s => snd s = Step) double_acquire_schedule /\ file (lrun linit double_acquire_schedule) = [0; 1].
Proof. split; [repeat constructor | exact lock_keeps_rows]. Qed.

Example C13_example_stale_lock :   (* stale lock of a dead owner taken over, three work packages, three rows *)
  Forall (fun s => snd s <> Timeout) (stale_serial_schedule 3) /\ file (lrun (lstale 7) (stale_serial_schedule 3)) = [0; 1; 2].
Proof. split; [repeat constructor; discriminate | exact stale_lock_keeps_rows]. Qed.

Example C13_example_triangular_hyps :   (* l = 0, m = r = 1, u = 1, the identity for sqrt (exact on the one square met, 1): the upper end *)
  (triangular_t (fun x => x) 0 1 1 1 == 1)%Q.
Proof. vm_compute. reflexivity. Qed.


Example C13_example_settings :
  let lines := ["INPUT, Reservoir Temperature, normal, #, 5" ++ NL1; "OUTPUT, Stored Heat (rock)" ++ NL1;
                "INPUT, Reservoir Area,uniform, 50, 120" ++ NL1; "ITERATIONS, 12" ++ NL1] in
  settings_agree lines [["Reservoir Temperature"; " normal"; " #"; " 5"]; ["Reservoir Area"; "uniform"; " 50"; " 120"]]
                 ["Stored Heat (rock)"] (Some "12") None = true
  /\ replace_mean ["Reservoir Temperature"; " normal"; " #"; " 5"] ["Reservoir Temperature, 250.0" ++ NL1; "Reservoir Area, 55.0" ++ NL1]
     = Some ["Reservoir Temperature"; " normal"; " 250.0" ++ NL1; " 5"]
  /\ forallb recognised [(" normal", [150; 5]%Q); ("uniform", [50; 120]%Q)] = true.
Proof. vm_compute. repeat split. Qed.
