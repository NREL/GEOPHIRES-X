(* Props/C14.v - Monte Carlo rows are reproducible and the statistics describe them.
   The statements, each with a short proof from the lemmas of Proofs/MCRowsProofs.v, Proofs/MCStatsProofs.v and
   Proofs/MonteCarloProofs.v. *)
From Coq Require Import List Arith Bool QArith Qminmax Permutation String Ascii Lia.
From Verif Require Import Model.MonteCarlo Proofs.MonteCarloProofs Model.MCRows Model.MCStats
                          Proofs.MCRowsProofs Proofs.MCStatsProofs.
Import ListNotations.
Open Scope nat_scope.
Open Scope string_scope.

(* a row written by work_package from output tokens (any number >= 1, each without comma, parenthesis or white
   space) and ANY text of sampled inputs is read back by the statistics step as exactly those tokens, in order;
   the two guards are the two reasons for which main() skips a line *)
Theorem C14_row_roundtrip :
  forall toks etext,
  toks <> [] -> forallb clean_token toks = true ->
  contains "-9999.0" (assemble_row toks etext) = false ->
  10 < String.length (strip (assemble_row toks etext)) ->
  parse_row (assemble_row toks etext) = Some toks.
Proof.
  intros toks etext Hne Hc Hs Hl. unfold parse_row. rewrite Hs.
  destruct (Nat.leb_spec (String.length (strip (assemble_row toks etext))) 10) as [H|_]; [lia|].
  rewrite (proj2 (assemble_row_clean toks etext Hne Hc)), before_sep_rows, remove_pars, split_join
    by (assumption || apply join_with_no_par, Hc). reflexivity.
Qed.
Print Assumptions C14_row_roundtrip.

(* a row is never longer than its tokens, its sampled-input text and three more characters: it goes to the file as ONE
   buffered write followed by flush (the harness observes one raw write() of exactly the row per work package) *)
Theorem C14_row_length_bound :
  forall toks etext,
  String.length (assemble_row toks etext) <= String.length (join_suffix ", " toks) + String.length etext + 3.
Proof.
  intros toks etext. unfold assemble_row, strip_char. rewrite length_app_s. cbn [String.length].
  eapply Nat.le_trans; [apply Nat.add_le_mono_r; eapply Nat.le_trans; apply strip_by_length|].
  rewrite !length_app_s. cbn [String.length]. lia.
Qed.
Print Assumptions C14_row_length_bound.

(* the input simulated by an iteration (current code, db0b708: the sampled lines start on a new line): for EVERY base
   file, every sampled 'name, value' pair is a line of its own of that input (lines: split at the new line; which line the
   simulator's reader takes a parameter from is the subject of C12) and the lines of the base file are unchanged *)
Theorem C14_sampled_inputs_are_lines :
  forall base entries,
  forallb (fun e => no_nl (entry_line e)) entries = true ->
  (forall e, In e entries -> In (entry_line e) (file_lines (input_file base entries))) /\
  file_lines (input_file base entries) = (file_lines base ++ map entry_line entries ++ [""])%list.
Proof. exact (fun b es H => conj (fun e => input_file_lines b es e H) (input_file_base_lines b es H)). Qed.
Print Assumptions C14_sampled_inputs_are_lines.

(* the code before db0b708: true only of base files that end with a new line ... *)
Theorem C14_sampled_inputs_pinned_partial :
  forall b0 entries e,
  forallb (fun e => no_nl (entry_line e)) entries = true -> In e entries ->
  In (entry_line e) (file_lines (input_file_pinned (b0 ++ String NLc "") entries)).
Proof.
  intros b0 entries e H Hin. unfold input_file_pinned. rewrite app_assoc_s. exact (input_file_lines b0 entries e H Hin).
Qed.
Print Assumptions C14_sampled_inputs_pinned_partial.

(* ... and refuted otherwise: the first pair is glued to the last line (regression seed corpus/C14/base_without_final_newline) *)
Theorem C14_sampled_inputs_pinned_refuted :
  exists base entries e, In e entries /\ ~ In (entry_line e) (file_lines (input_file_pinned base entries))
    /\ file_lines (input_file_pinned base entries) = ["Reservoir Life Cycle, 25, yearsReservoir Area, 81.5"; ""].
Proof.
  pose (e := ("Reservoir Area", "81.5")). pose (base := "Reservoir Life Cycle, 25, years"). exists base, [e], e.
  assert (E : file_lines (input_file_pinned base [e]) = ["Reservoir Life Cycle, 25, yearsReservoir Area, 81.5"; ""])
    by (vm_compute; reflexivity).
  split; [left; reflexivity|]. split; [|exact E].
  rewrite E. intros [H|[H|[]]]; vm_compute in H; discriminate H.
Qed.
Print Assumptions C14_sampled_inputs_pinned_refuted.

(* columns line up with the header exactly when every requested output is found (once) in the report ... *)
Theorem C14_alignment_partial :
  forall outputs lines,
  (List.length (row_tokens outputs lines) = List.length outputs <-> forallb (found lines) outputs = true) /\
  (forallb (found lines) outputs = true -> row_tokens outputs lines = map (value_of lines) outputs).
Proof.
  intros outputs lines. rewrite row_tokens_filter, map_length. split; [apply filter_length_all|].
  intros H. rewrite (filter_all _ _ H). reflexivity.
Qed.
Print Assumptions C14_alignment_partial.

(* ... and otherwise a column holds the value of another output (the code skips what it does not find) *)
Theorem C14_alignment_refuted :
  exists outputs lines i, i < List.length (row_tokens outputs lines) /\ found lines (nth i outputs "") = true /\
    nth i (row_tokens outputs lines) "" <> value_of lines (nth i outputs "").
Proof.
  exists ["Missing"; "B"; "C"], ["  B: 1 u"; "  C: 2 u"], 1. vm_compute. repeat split; [lia | discriminate].
Qed.
Print Assumptions C14_alignment_refuted.

(* appends: the rows of the same work packages taken in another order are a permutation of the rows (a fact about lists;
   which work packages the file holds is the next theorem) *)
Theorem C14_interleave :
  forall (A : Type) (row : nat -> A) tasks order, Permutation tasks order ->
  Permutation (map row tasks) (map row order).
Proof. intros A row tasks order. apply Permutation_map. Qed.
Print Assumptions C14_interleave.

(* under the lock protocol of the current code the file holds exactly the finished work packages, in some order, for every
   interleaving without time-out (the code before 1d8733c needed mutual exclusion: C13_row_count_pinned_refuted;
   time-outs: C13_row_count_timeout_refuted) *)
Theorem C14_interleave_lock :
  forall sched tasks, Forall (fun s => snd s = Step) sched -> NoDup tasks ->
  (forall t, In t tasks <-> finished (phases (lrun linit sched) t) = true) ->
  Permutation tasks (file (lrun linit sched)).
Proof.
  intros sched tasks F ND. apply (lock_file_perm_from None sched tasks); [|exact ND].
  revert F. apply Forall_impl. intros s E. rewrite E. discriminate.
Qed.
Print Assumptions C14_interleave_lock.

(* the lock file stores a pass phrase; the code makes a fresh one (uuid1) in every work package.  A contender whose pass
   phrase differs from the stored one is refused in EVERY state: a work package that arrives while another is inside its
   critical section (its pass phrase verified in the lock file) stays outside ... *)
Theorem C14_distinct_pass_excludes :
  forall pass early st a b,
  pass a <> pass b -> lock st = Some (pass a) -> phases st b = PIdle -> lstep_pass pass early st b Step = st.
Proof.
  intros pass early st a b Hne Hl Hb. unfold lstep_pass. rewrite Hb, Hl. cbn [free_for].
  destruct (Nat.eqb_spec (pass a) (pass b)); [contradiction | reflexivity].
Qed.
Print Assumptions C14_distinct_pass_excludes.

(* ... and with one pass phrase shared by the work packages it is let in at once: both hold the lock (same schedule:
   distinct pass phrases keep work package 1 polling) *)
Theorem C14_shared_pass_refuted :
  let d := lrun_pass (fun t => t) true linit overlap_schedule in
  let s := lrun_pass (fun _ => 7) true linit overlap_schedule in
  (phases d 0 = PHolding /\ phases d 1 = PIdle) /\ (phases s 0 = PHolding /\ phases s 1 = PHolding).
Proof. vm_compute. repeat split. Qed.
Print Assumptions C14_shared_pass_refuted.

(* an iteration that fails removes its own row and nothing else *)
Theorem C14_failure_local :
  forall (A : Type) (sim : nat -> option A) t0 order,
  result_rows (fun t => if Nat.eqb t t0 then None else sim t) order
  = filter (fun p => negb (Nat.eqb (fst p) t0)) (result_rows sim order).
Proof.
  intros A sim t0 order. unfold result_rows. induction order as [|t r IH]; cbn [flat_map]; [reflexivity|].
  rewrite filter_app, <- IH. f_equal. destruct (Nat.eqb t t0) eqn:E, (sim t); cbn; rewrite ?E; reflexivity.
Qed.
Print Assumptions C14_failure_local.

(* statistics do not depend on the order in which workers appended the rows ... *)
Theorem C14_stats_perm :
  forall x l y l', Permutation (x :: l) (y :: l') ->
  (min_of x l == min_of y l' /\ max_of x l == max_of y l' /\ median (x :: l) = median (y :: l') /\
   mean (x :: l) == mean (y :: l') /\ variance (x :: l) == variance (y :: l'))%Q.
Proof.
  exact (fun x l y l' P => conj (min_perm x l y l' P) (conj (max_perm x l y l' P) (conj (median_perm _ _ P)
          (conj (mean_perm _ _ P) (variance_perm _ _ P))))).
Qed.
Print Assumptions C14_stats_perm.

(* ... and are ordered as statistics must be *)
Theorem C14_stats_order :
  forall x l,
  (min_of x l <= median (x :: l) /\ median (x :: l) <= max_of x l /\
   min_of x l <= mean (x :: l) /\ mean (x :: l) <= max_of x l /\ 0 <= variance (x :: l))%Q.
Proof.
  exact (fun x l => conj (proj1 (median_bounds x l)) (conj (proj2 (median_bounds x l))
          (conj (proj1 (mean_bounds x l)) (conj (proj2 (mean_bounds x l)) (variance_nonneg x l))))).
Qed.
Print Assumptions C14_stats_order.

(* the reduced evaluation the harness runs on real rows computes the same mean and variance *)
Theorem C14_stats_evaluator :
  forall l, (mean_x l == mean l /\ variance_x l == variance l)%Q.
Proof. exact (fun l => conj (mean_x_eq l) (variance_x_eq l)). Qed.
Print Assumptions C14_stats_evaluator.

Example C14_example_roundtrip :
  let line := assemble_row ["3.64e+14"; "199.57"] "Reservoir Area:81.5;Verif Unused B:-3.2;" in
  forallb clean_token ["3.64e+14"; "199.57"] = true /\ contains "-9999.0" line = false /\
  10 < String.length (strip line) /\ parse_row line = Some ["3.64e+14"; "199.57"].
Proof. vm_compute. repeat split; lia. Qed.

Example C14_example_alignment :
  row_tokens ["A"; "B"] ["  A: 1.5 u"; "  B: 2 u"; "other"] = ["1.5"; "2"]
  /\ forallb (found ["  A: 1.5 u"; "  B: 2 u"; "other"]) ["A"; "B"] = true.
Proof. vm_compute. split; reflexivity. Qed.

Example C14_example_stats :
  (median [3; 1; 2; 10] == 5 # 2 /\ mean [3; 1; 2; 10] == 4 /\ min_of 3 [1; 2; 10] == 1 /\ max_of 3 [1; 2; 10] == 10
   /\ variance [3; 1; 2; 10] == 25 # 2)%Q.
Proof. vm_compute. repeat split; reflexivity. Qed.

Example C14_example_failure :
  result_rows (fun t => if Nat.eqb t 1 then None else Some (10 * t)) [0; 1; 2] = [(0, 0); (2, 20)].
Proof. vm_compute. reflexivity. Qed.

Example C14_example_sampled_inputs :
  file_lines (input_file "Reservoir Life Cycle, 25, years" [("Reservoir Area", "81.5"); ("B", "2")])
  = ["Reservoir Life Cycle, 25, years"; "Reservoir Area, 81.5"; "B, 2"; ""]
  /\ file_lines (input_file_pinned ("Reservoir Life Cycle, 25" ++ String NLc "") [("Reservoir Area", "81.5")])
  = ["Reservoir Life Cycle, 25"; "Reservoir Area, 81.5"; ""].
Proof. vm_compute. split; reflexivity. Qed.

Example C14_example_pass_exclusion :   (* hypotheses of C14_distinct_pass_excludes met by the state after work package 0 acquired *)
  let st := lrun_pass (fun t => t) true linit [(0, Step); (0, Step); (0, Step)] in
  lock st = Some 0 /\ phases st 1 = PIdle /\ lstep_pass (fun t => t) true st 1 Step = st.
Proof. cbn. repeat split. Qed.
