(* Props/C15.v - Pumping power and modelled pressures stay physical: the reservoir-pressure predictors
   (Model/Pressure.v), the pumping power of both hydraulic models (Model/Pumping.v), the frictional loss
   (Model/Friction.v), how it enters the pump pressures (Model/WellDP.v) and the static / hydrostatic correlations
   (Model/Hydrostatic.v).  The statements, each derived in a few lines from the lemmas of Proofs/. *)
From Coq Require Import QArith Qminmax List ZArith Bool Lia Lqa.
From Verif Require Import Base.Flat Proofs.FlatFacts Model.Pressure Model.Pumping Model.Friction Model.WellDP Model.Hydrostatic
     Proofs.PressureProofs Proofs.PumpingProofs Proofs.FrictionProofs Proofs.HydrostaticProofs.
Import ListNotations.
Open Scope Q_scope.

(* Production-reservoir pressure.  FULL clause: "for every overpressure >= 100 % and every depletion rate > 0
   the series exists, starts at p0*op/100, declines monotonically at the stated rate, never below p0".
   The faithful model REFUTES "the series exists": a rate above 100 % per time step truncates the step count
   int((100/rate)*k) to 0 and the code divides by it. *)
Theorem C15_prod_pressure_defined_refuted :
  exists life k p0 op rate,
    (0 < life * k)%nat /\ 0 < p0 /\ 100 <= op /\ 0 < rate /\ prod_pressure life k p0 op rate = Err E_ZERODIV.
Proof.
  exists 2%nat, 1%nat, 1000, 150, 150. split; [lia|]. do 3 (split; [lra|]).
  apply prod_pressure_fast_is_error; [lia|lra|reflexivity].
Qed.
Print Assumptions C15_prod_pressure_defined_refuted.

(* ... and exactly there: every rate above 100*k %/yr with an overpressure other than 100 % raises, whatever else *)
Theorem C15_prod_pressure_fast_depletion_is_error :
  forall life k p0 op rate,
    (0 < life * k)%nat -> ~ op == 100 -> 100 * natQ k < rate ->
    prod_pressure life k p0 op rate = Err E_ZERODIV.
Proof. exact prod_pressure_fast_is_error. Qed.
Print Assumptions C15_prod_pressure_fast_depletion_is_error.

(* The clause under the missing hypothesis rate <= 100*k: for EVERY lifetime, steps per year, hydrostatic pressure
   p0 >= 0, overpressure op >= 100 and rate in (0, 100*k] the series l has one entry per time step and
   - s = int(100*k/rate) >= 1 is the number of depletion steps,
   - l[0] = p0*op/100, every entry >= p0, the series never rises,
   - while t+1 <= s it drops by exactly (p0*op/100 - p0)/s per step, from step s on it is p0. *)
Theorem C15_prod_pressure_partial :
  forall life k p0 op rate,
  (0 < life * k)%nat -> 0 <= p0 -> 100 <= op -> 0 < rate -> rate <= 100 * natQ k ->
  exists l s,
    prod_pressure life k p0 op rate = Vals l /\ length l = (life * k)%nat /\
    (1 <= s)%Z /\ inject_Z s <= 100 * natQ k / rate /\ 100 * natQ k / rate < inject_Z s + 1 /\
    nth 0 l 0 == p0 * (op / 100) /\
    (forall t, (t < life * k)%nat -> p0 <= nth t l 0) /\
    (forall t, (S t < life * k)%nat -> nth (S t) l 0 <= nth t l 0) /\
    (forall t, (S t < life * k)%nat -> (Z.of_nat (S t) <= s)%Z ->
               nth (S t) l 0 == nth t l 0 - (p0 * (op / 100) - p0) / inject_Z s) /\
    (forall t, (t < life * k)%nat -> (s <= Z.of_nat t)%Z -> nth t l 0 == p0).
Proof.
  intros * Hn Hp Hop Hr Hrk.
  destruct (depletion_steps_whole rate k Hr Hrk) as (s & Hs & Hs1 & L & U).
  destruct (prod_pressure_with_closed life k p0 op s Hn Hp Hop Hs1) as (l & El & Len & Hnth).
  exists l, s. unfold prod_pressure. rewrite Hs. do 5 (split; [assumption|]).
  (* each remaining clause is the fact of the same shape about [prod_closed], carried over to [l] by [Hnth] *)
  split; [|split; [|split; [|split]]].
  - pose proof (Hnth O Hn). pose proof (prod_closed_start p0 op s Hp Hop). lra.
  - intros t Ht. pose proof (Hnth t Ht). pose proof (prod_closed_ge p0 op s t). lra.
  - intros t Ht. pose proof (Hnth t (Nat.lt_succ_l _ _ Ht)). pose proof (Hnth (S t) Ht).
    pose proof (prod_closed_step_le p0 op s t Hp Hop Hs1). lra.
  - intros t Ht Hts. pose proof (Hnth t (Nat.lt_succ_l _ _ Ht)). pose proof (Hnth (S t) Ht).
    pose proof (prod_closed_exact_step p0 op s t Hp Hop Hs1 Hts). lra.
  - intros t Ht Hts. pose proof (Hnth t Ht). pose proof (prod_closed_floor p0 op s t Hp Hop Hs1 Hts). lra.
Qed.
Print Assumptions C15_prod_pressure_partial.

(* the same as one closed form per time step: l[t] = max(p0, p0*op/100 - (p0*op/100 - p0)/s * t) *)
Theorem C15_prod_pressure_closed_form :
  forall life k p0 op rate s,
  (0 < life * k)%nat -> 0 <= p0 -> 100 <= op -> depletion_steps rate k = Some s -> (1 <= s)%Z ->
  exists l, prod_pressure life k p0 op rate = Vals l /\ length l = (life * k)%nat /\
            forall t, (t < life * k)%nat -> nth t l 0 == prod_closed p0 op s t.
Proof.
  intros * Hn Hp Hop Hs Hs1. unfold prod_pressure. rewrite Hs.
  apply prod_pressure_with_closed; assumption.
Qed.
Print Assumptions C15_prod_pressure_closed_form.

(* the same for ANY step count s >= 1 - in particular the one the code's float expression int((100.0/rate)*k) produced
   when it differs from the exact truncation (rounding of that expression is outside the model) *)
Theorem C15_prod_pressure_closed_form_any_steps :
  forall life k p0 op s,
  (0 < life * k)%nat -> 0 <= p0 -> 100 <= op -> (1 <= s)%Z ->
  exists l, prod_pressure_with life k p0 op (Some s) = Vals l /\ length l = (life * k)%nat /\
            forall t, (t < life * k)%nat -> nth t l 0 == prod_closed p0 op s t.
Proof. exact prod_pressure_with_closed. Qed.
Print Assumptions C15_prod_pressure_closed_form_any_steps.

(* "at the stated depletion rate": rate % of the initial overpressure per year, spread over k steps, is
   delta*rate/(100*k) per step.  The truncated step count never makes the decline slower than stated ... *)
Theorem C15_decline_never_slower_than_stated :
  forall delta rate k s,
  0 <= delta -> 0 < rate -> (0 < k)%nat -> (1 <= s)%Z -> inject_Z s <= 100 * natQ k / rate ->
  delta * rate / (100 * natQ k) <= delta / inject_Z s.
Proof.
  intros * Hd Hr Hk Hs Hle. pose proof (natQ_pos k Hk) as Hkq.
  assert (E : delta / (100 * natQ k / rate) == delta * rate / (100 * natQ k)) by (apply Qdiv_div_r; lra).
  pose proof (Qdiv_le_antimono delta _ _ Hd (inject_Z_pos s Hs) Hle). lra.
Qed.
Print Assumptions C15_decline_never_slower_than_stated.

(* ... and it is exactly the stated rate whenever 100*k/rate is a whole number of steps *)
Theorem C15_decline_exact_when_divisible :
  forall delta rate k s,
  0 < rate -> (0 < k)%nat -> inject_Z s == 100 * natQ k / rate ->
  delta / inject_Z s == delta * rate / (100 * natQ k).
Proof.
  intros * Hr Hk E. pose proof (natQ_pos k Hk) as Hkq. rewrite E. apply Qdiv_div_r; lra.
Qed.
Print Assumptions C15_decline_exact_when_divisible.

(* Injection-reservoir pressure: for every lifetime, steps per year, start pressure and inflation rate (any sign)
   entry t is p0 + rate/k*t; it rises by exactly rate/k per step, strictly when rate > 0. *)
Theorem C15_inj_pressure :
  forall life k p0 rate,
  (0 < life * k)%nat ->
  exists l, inj_pressure life k p0 rate = Vals l /\ length l = (life * k)%nat /\
    (forall t, (t < life * k)%nat -> nth t l 0 == inj_closed p0 rate k t) /\
    (forall t, (S t < life * k)%nat -> nth (S t) l 0 == nth t l 0 + rate / natQ k) /\
    (0 < rate -> forall t, (S t < life * k)%nat -> nth t l 0 < nth (S t) l 0).
Proof.
  intros * Hn. destruct (inj_pressure_closed life k p0 rate Hn) as (l & El & Len & Hnth).
  assert (Hstep : forall t, (S t < life * k)%nat -> nth (S t) l 0 == nth t l 0 + rate / natQ k).
  { intros t Ht. pose proof (Hnth t (Nat.lt_succ_l _ _ Ht)). pose proof (Hnth (S t) Ht).
    pose proof (inj_closed_step p0 rate k t). lra. }
  exists l. do 4 (split; [assumption|]). intros Hr t Ht.
  assert (0 < rate / natQ k) by (apply Qlt_shift_div_l; [apply natQ_pos; nia|lra]).
  pose proof (Hstep t Ht). lra.
Qed.
Print Assumptions C15_inj_pressure.

(* which series a run gets.  FULL clause: "with an overpressure input the injection series is defined".
   REFUTED by the faithful model: without an injection-reservoir depth or inflation rate the code reads an
   unassigned local variable. *)
Theorem C15_inj_stage_defined_refuted :
  exists life k p infl prod l, prod = Vals l /\ (0 < life * k)%nat /\
    inj_stage true false false life k p infl prod = Err E_UNBOUND.
Proof.
  exists 1%nat, 1%nat, 1000, 100, (Vals [1500]), [1500].
  split; [reflexivity|]. split; [lia|apply inj_stage_unbound].
Qed.
Print Assumptions C15_inj_stage_defined_refuted.

Theorem C15_inj_stage_partial :
  forall d i life k p infl prod,
  d || i = true -> inj_stage true d i life k p infl prod = inj_pressure life k p infl.
Proof. intros * H. unfold inj_stage. now rewrite H. Qed.
Print Assumptions C15_inj_stage_partial.

Theorem C15_inj_stage_without_overpressure :
  forall life k p infl d i prod, inj_stage false d i life k p infl prod = prod.
Proof. reflexivity. Qed.
Print Assumptions C15_inj_stage_without_overpressure.

(* A second WellBores.Calculate on the same model (district heating).  FULL clause: "the injection series is defined
   again".  REFUTED: with an overpressure input and a split reservoir the first pass succeeds and the second raises
   TypeError (the stored series is compared with 0); every such input does; without overpressure it is harmless. *)
Theorem C15_second_pass_defined_refuted :
  exists d i life k p infl prod l,
    inj_stage true d i life k p infl prod = Vals l /\ inj_stage_second_pass true d i life k p infl prod = Err E_TYPE.
Proof.
  exists true, false, 1%nat, 2%nat, 9000, 100, (Vals [1; 1]). eexists. split; vm_compute; reflexivity.
Qed.
Print Assumptions C15_second_pass_defined_refuted.

Theorem C15_second_pass_partial :
  (forall d i life k p infl prod, d || i = true -> inj_stage_second_pass true d i life k p infl prod = Err E_TYPE) /\
  (forall life k p infl d i prod, inj_stage_second_pass false d i life k p infl prod = prod).
Proof.
  split; [|reflexivity]. intros * H. unfold inj_stage_second_pass. now rewrite H.
Qed.
Print Assumptions C15_second_pass_partial.

(* Pumping power, productivity/injectivity-index model (pumped and self-flowing), every series length:
   production, injection and total power are >= 0 at every time step for ANY pressure drops, densities,
   efficiency, flow and well counts; with production pumps the total is exactly injection + production,
   without them it is the injection power. *)
Theorem C15_index_model_nonneg_and_sum :
  forall pumping nprod q wl eff dpp dpi rhop rhoi pp pi t,
  prod_power_series pumping nprod q eff dpp rhop = Some pp ->
  inj_power_series nprod q wl eff dpi rhoi = Some pi ->
  total_power pumping pi pp = Some t ->
  length t = length pi /\
  (forall i, (i < length pp)%nat -> 0 <= nth i pp 0) /\
  (forall i, (i < length pi)%nat -> 0 <= nth i pi 0) /\
  (forall i, (i < length t)%nat -> 0 <= nth i t 0) /\
  (forall i, (i < length t)%nat -> nth i t 0 == if pumping then nth i pi 0 + nth i pp 0 else nth i pi 0).
Proof.
  intros * Hpp Hpi Ht.
  pose proof (zipQ_all (fun x => 0 <= x) _ (prod_power_nonneg pumping nprod q eff) _ _ _ Hpp) as Npp.
  pose proof (zipQ_all (fun x => 0 <= x) _ (inj_power_nonneg nprod q wl eff) _ _ _ Hpi) as Npi.
  cbv beta in Npp, Npi. destruct (total_power_spec _ _ _ _ Ht) as (Lt & Lp & Hn).
  split; [exact Lt|]. split; [exact Npp|]. split; [exact Npi|].
  split; intros i Hi; rewrite (Hn i Hi); [apply clamp0_nonneg|].
  rewrite clamp0_id; [reflexivity|]. rewrite Lt in Hi. pose proof (Npi i Hi).
  destruct pumping; [|assumption]. rewrite <- Lt, (Lp eq_refl) in Hi. pose proof (Npp i Hi). lra.
Qed.
Print Assumptions C15_index_model_nonneg_and_sum.

(* impedance model: the power series is >= 0 at every time step, for any overall pressure drop *)
Theorem C15_impedance_model_nonneg :
  forall ninj q wl eff dp rho l,
  imp_power_series ninj q wl eff dp rho = Some l ->
  length l = length dp /\ forall i, (i < length l)%nat -> 0 <= nth i l 0.
Proof.
  intros * H. split; [apply (zipQ_spec _ _ _ _ H)|].
  apply (zipQ_all (fun x => 0 <= x) _ (imp_power_nonneg ninj q wl eff) _ _ _ H).
Qed.
Print Assumptions C15_impedance_model_nonneg.

(* what the clamp does: zero when the wells self-flow, the demand itself otherwise *)
Theorem C15_impedance_clamp :
  forall ninj q wl eff dp rho,
  (imp_power_raw ninj q wl eff dp rho < 0 -> imp_power ninj q wl eff dp rho = 0) /\
  (0 <= imp_power_raw ninj q wl eff dp rho -> imp_power ninj q wl eff dp rho = imp_power_raw ninj q wl eff dp rho).
Proof. intros ninj q wl eff dp rho. split; intros H; [apply clamp0_neg|apply clamp0_id]; exact H. Qed.
Print Assumptions C15_impedance_clamp.

(* Friction.  Laminar flow: DP = 128 mu q depth/(pi rho D^4)/1000 exactly; and it is never larger for a larger
   diameter (all positive flows, densities, viscosities, depths), an instance of the growth premise below. *)
Theorem C15_friction_laminar_closed :
  forall q rho mu pi depth d,
  ~ q == 0 -> ~ rho == 0 -> ~ mu == 0 -> ~ pi == 0 -> ~ d == 0 ->
  dp_laminar q rho mu pi depth d == 128 * mu * q * depth / (pi * rho * 1000) / (d * d * d * d).
Proof.
  intros * Hq Hr Hm Hp Hd.
  unfold dp_laminar, dp_of, dp_friction, velocity, f_laminar, reynolds. field. repeat split; assumption.
Qed.
Print Assumptions C15_friction_laminar_closed.

Theorem C15_friction_laminar :
  forall q rho mu pi depth d1 d2,
  0 < q -> 0 < rho -> 0 < mu -> 0 < pi -> 0 <= depth -> 0 < d1 -> d1 <= d2 ->
  dp_laminar q rho mu pi depth d2 <= dp_laminar q rho mu pi depth d1.
Proof.
  intros * Hq Hr Hm Hp Hdepth Hd1 Hd.
  apply dp_of_mono_growth; try assumption; [lra|apply laminar_growth; assumption].
Qed.
Print Assumptions C15_friction_laminar.

(* Any regime, any turbulent correlation [colebrook relroughness Re] (library code: log10, sqrt, powers):
   PARTIAL - if the friction factor of a time step taken by itself ([well_f]: branch by the step's own Re) grows
   slower than D^5, the pressure loss never increases with D; the premise covers the laminar/turbulent switch as well.
   The code takes one branch for a whole series (C15_series_branch below); what is checked on the real
   WellPressureDrop over the parameter box on every run is the premise on the factors it returned
   (C15_friction_checker_sound). *)
Theorem C15_friction_turbulent_partial :
  forall colebrook q rho mu pi depth,
  0 < rho -> 0 < pi -> 0 <= depth ->
  (forall d1 d2, 0 < d1 -> d1 <= d2 ->
      well_f colebrook q mu pi d2 * pow5 d1 <= well_f colebrook q mu pi d1 * pow5 d2) ->
  forall d1 d2, 0 < d1 -> d1 <= d2 ->
    dp_of (well_f colebrook q mu pi d2) q rho pi depth d2 <= dp_of (well_f colebrook q mu pi d1) q rho pi depth d1.
Proof.
  intros * Hr Hp Hdepth Hg d1 d2 Hd1 Hd.
  apply dp_of_mono_growth; try assumption; [lra|apply Hg; assumption].
Qed.
Print Assumptions C15_friction_turbulent_partial.

(* the laminar factor 64/Re meets that premise unconditionally *)
Theorem C15_friction_laminar_growth :
  forall q mu pi d1 d2,
  0 < q -> 0 < mu -> 0 < pi -> 0 < d1 -> d1 <= d2 ->
  f_laminar (reynolds q mu pi d2) * pow5 d1 <= f_laminar (reynolds q mu pi d1) * pow5 d2.
Proof. exact laminar_growth. Qed.
Print Assumptions C15_friction_laminar_growth.

(* the per-run check of the premise is sound: where the checker accepts two (diameter, friction factor) pairs
   produced by the code, the modelled pressure loss at the larger diameter is not larger *)
Theorem C15_friction_checker_sound :
  forall f1 f2 q rho pi depth d1 d2,
  growth_ok d1 f1 d2 f2 = true ->
  0 < rho -> 0 < pi -> 0 <= depth -> 0 < d1 -> 0 < d2 ->
  dp_of f2 q rho pi depth d2 <= dp_of f1 q rho pi depth d1.
Proof.
  intros * H Hr Hp Hdepth Hd1 Hd2. apply Qleb_true in H.
  apply dp_of_mono_growth; assumption.
Qed.
Print Assumptions C15_friction_checker_sound.

(* How the friction term enters the pump pressures (index model: production and injection pump; impedance model:
   overall drop): always with a plus sign - pump pressure = (everything else) + frictional loss. *)
Theorem C15_friction_enters_with_plus_sign :
  (forall pwh phyd q pikpa rho depth fric,
     dp_prod_index pwh phyd q pikpa rho depth fric == dp_prod_index pwh phyd q pikpa rho depth 0 + fric) /\
  (forall phyd q wl nprod ninj iikpa rho depth fric pout,
     dp_inj_index phyd q wl nprod ninj iikpa rho depth fric pout ==
     dp_inj_index phyd q wl nprod ninj iikpa rho depth 0 pout + fric) /\
  (forall imp nprod q rhores rhop rhoi depth dpp dpi,
     dp_overall (dp_reserv imp nprod q rhores) dpp (dp_buoyancy rhop rhoi depth) dpi ==
     dp_overall (dp_reserv imp nprod q rhores) 0 (dp_buoyancy rhop rhoi depth) 0 + dpp + dpi).
Proof.
  split; [|split]; intros; [unfold dp_prod_index|unfold dp_inj_index|unfold dp_overall]; lra.
Qed.
Print Assumptions C15_friction_enters_with_plus_sign.

(* hence, with everything but the diameter equal and the growth premise on the friction factors, neither the
   production pump pressure nor the (clamped) production pumping power grows with the production-well diameter ... *)
Theorem C15_prod_pump_vs_diameter_partial :
  forall pwh phyd q pikpa rho pi depth nprod eff f1 f2 d1 d2,
  0 < rho -> 0 < pi -> 0 <= depth -> 0 < d1 -> 0 < d2 -> 0 <= nprod -> 0 <= q -> 0 < eff ->
  f2 * pow5 d1 <= f1 * pow5 d2 ->
  let dp d f := dp_prod_index pwh phyd q pikpa rho depth (dp_of f q rho pi depth d) in
  dp d2 f2 <= dp d1 f1 /\
  prod_power true nprod q eff (dp d2 f2) rho <= prod_power true nprod q eff (dp d1 f1) rho.
Proof.
  intros * Hr Hp Hdepth Hd1 Hd2 Hn Hq He Hg dp.
  assert (Hdp : dp d2 f2 <= dp d1 f1).
  { pose proof (dp_of_mono_growth f1 f2 q rho pi depth d1 d2 Hr Hp Hdepth Hd1 Hd2 Hg).
    unfold dp, dp_prod_index. lra. }
  split; [exact Hdp|]. apply prod_power_mono; assumption.
Qed.
Print Assumptions C15_prod_pump_vs_diameter_partial.

(* ... nor the injection pump pressure / power with the injection-well diameter ([qw]: flow in one injection well) *)
Theorem C15_inj_pump_vs_diameter_partial :
  forall phyd q qw wl nprod ninj iikpa rho pi depth pout eff f1 f2 d1 d2,
  0 < rho -> 0 < pi -> 0 <= depth -> 0 < d1 -> 0 < d2 -> 0 <= nprod -> 0 <= q -> 0 <= 1 + wl -> 0 < eff ->
  f2 * pow5 d1 <= f1 * pow5 d2 ->
  let dp d f := dp_inj_index phyd q wl nprod ninj iikpa rho depth (dp_of f qw rho pi depth d) pout in
  dp d2 f2 <= dp d1 f1 /\
  inj_power nprod q wl eff (dp d2 f2) rho <= inj_power nprod q wl eff (dp d1 f1) rho.
Proof.
  intros * Hr Hp Hdepth Hd1 Hd2 Hn Hq Hw He Hg dp.
  assert (Hdp : dp d2 f2 <= dp d1 f1).
  { pose proof (dp_of_mono_growth f1 f2 qw rho pi depth d1 d2 Hr Hp Hdepth Hd1 Hd2 Hg).
    unfold dp, dp_inj_index. lra. }
  split; [exact Hdp|]. apply inj_power_mono; assumption.
Qed.
Print Assumptions C15_inj_pump_vs_diameter_partial.

(* impedance model: a smaller well friction (either well) never gives a larger overall drop or pumping power *)
Theorem C15_impedance_vs_friction :
  forall imp nprod ninj q wl eff rhores rhop rhoi depth dpp1 dpp2 dpi1 dpi2,
  0 <= ninj -> 0 <= q -> 0 <= 1 + wl -> 0 < rhoi -> 0 < eff -> dpp2 <= dpp1 -> dpi2 <= dpi1 ->
  let dpo dpp dpi := dp_overall (dp_reserv imp nprod q rhores) dpp (dp_buoyancy rhop rhoi depth) dpi in
  dpo dpp2 dpi2 <= dpo dpp1 dpi1 /\
  imp_power ninj q wl eff (dpo dpp2 dpi2) rhoi <= imp_power ninj q wl eff (dpo dpp1 dpi1) rhoi.
Proof.
  intros * Hn Hq Hw Hr He Hp Hi dpo.
  assert (H : dpo dpp2 dpi2 <= dpo dpp1 dpi1) by (unfold dpo, dp_overall; lra).
  split; [exact H|]. apply imp_power_mono; assumption.
Qed.
Print Assumptions C15_impedance_vs_friction.

(* What surrounds the friction factor in WellPressureDrop / InjectionWellPressureDrop.
   Velocity conserves mass; the code's Reynolds number 4q/(mu pi D) is rho v D/mu; both fall when D grows. *)
Theorem C15_velocity_and_reynolds :
  (forall q rho pi d, ~ rho == 0 -> ~ pi == 0 -> ~ d == 0 -> velocity q rho pi d * rho * (pi / 4 * (d * d)) == q) /\
  (forall q rho mu pi d, ~ rho == 0 -> ~ mu == 0 -> ~ pi == 0 -> ~ d == 0 ->
     reynolds q mu pi d == rho * velocity q rho pi d * d / mu) /\
  (forall q rho pi d1 d2, 0 <= q -> 0 < rho -> 0 < pi -> 0 < d1 -> d1 <= d2 -> velocity q rho pi d2 <= velocity q rho pi d1) /\
  (forall q mu pi d1 d2, 0 <= q -> 0 < mu -> 0 < pi -> 0 < d1 -> d1 <= d2 -> reynolds q mu pi d2 <= reynolds q mu pi d1).
Proof. exact (conj velocity_mass_balance (conj reynolds_textbook (conj velocity_antimono reynolds_antimono))). Qed.
Print Assumptions C15_velocity_and_reynolds.

(* the laminar/turbulent switch of a single time step: Re < 2300 -> 64/Re; Re >= 2300 (2300 included) -> the turbulent
   correlation with relative roughness 1E-4/D; a laminar well stays laminar when D grows; just below the switch the
   factor is above 64/2300, so f is not continuous at the switch in general (none is claimed) *)
Theorem C15_regime_switch :
  (forall colebrook q mu pi d, reynolds q mu pi d < 2300 -> well_f colebrook q mu pi d = f_laminar (reynolds q mu pi d)) /\
  (forall colebrook q mu pi d, 2300 <= reynolds q mu pi d ->
     well_f colebrook q mu pi d = colebrook ((1 # 10000) / d) (reynolds q mu pi d)) /\
  (forall q mu pi d1 d2, 0 <= q -> 0 < mu -> 0 < pi -> 0 < d1 -> d1 <= d2 ->
     reynolds q mu pi d1 < 2300 -> reynolds q mu pi d2 < 2300) /\
  (forall re, 0 < re -> re < 2300 -> 64 / 2300 < f_laminar re).
Proof. exact (conj well_f_laminar_branch (conj well_f_turbulent_branch (conj laminar_stays_laminar laminar_factor_above_limit))). Qed.
Print Assumptions C15_regime_switch.

(* a whole series gets ONE branch, chosen by the average Reynolds number ... *)
Theorem C15_series_branch :
  (forall q pi d mu fturb, laminar_regime q pi d mu = true ->
     friction_series q pi d mu fturb = map (fun m => f_laminar (reynolds q m pi d)) mu) /\
  (forall q pi d mu fturb, laminar_regime q pi d mu = false -> friction_series q pi d mu fturb = fturb).
Proof. exact (conj friction_series_laminar friction_series_turbulent). Qed.
Print Assumptions C15_series_branch.

(* ... so a time step whose own Re is >= 2300 can be given the laminar factor (what the code does) *)
Theorem C15_regime_decided_by_average :
  exists q pi d mu fturb, laminar_regime q pi d mu = true /\ 2300 <= reynolds q (nth 0 mu 0) pi d /\
    nth 0 (friction_series q pi d mu fturb) 0 == f_laminar (reynolds q (nth 0 mu 0) pi d).
Proof.
  exists 1, (355 # 113), (6 # 10), [(8 # 10000); (12 # 10000)], [(4 # 100); (4 # 100)].
  split; [vm_compute; reflexivity|]. split; vm_compute; [discriminate|reflexivity].
Qed.
Print Assumptions C15_regime_decided_by_average.

(* every step's pressure loss is f_i * rho_i * v_i^2/2 * L/D / 1000 with the step's own factor and density, in both wells
   (the injection well with the flow nprod/ninj*q*(1+waterloss)) *)
Theorem C15_pressure_loss_per_step :
  (forall q pi depth d f rho i, (i < length f)%nat -> (i < length rho)%nat ->
     nth i (dp_series q pi depth d f rho) 0 = dp_of (nth i f 0) q (nth i rho 0) pi depth d) /\
  (forall f q rho pi depth d,
     dp_of f q rho pi depth d = f * (rho * (velocity q rho pi d * velocity q rho pi d) / 2) * (depth / d) / 1000).
Proof. split; [exact dp_series_nth|reflexivity]. Qed.
Print Assumptions C15_pressure_loss_per_step.

(* Static (litho-/hydrostatic) column rho*g*depth: positive, strictly increasing and additive in depth, monotone in
   the density - for all positive densities and depths. *)
Theorem C15_static_pressure :
  (forall rho depth, 0 < rho -> 0 < depth -> 0 < static_pressure_MPa rho depth) /\
  (forall rho d1 d2, 0 <= rho -> d1 <= d2 -> static_pressure_MPa rho d1 <= static_pressure_MPa rho d2) /\
  (forall rho d1 d2, 0 < rho -> d1 < d2 -> static_pressure_MPa rho d1 < static_pressure_MPa rho d2) /\
  (forall rho d1 d2, static_pressure_MPa rho (d1 + d2) == static_pressure_MPa rho d1 + static_pressure_MPa rho d2) /\
  (forall r1 r2 depth, 0 <= depth -> r1 <= r2 -> static_pressure_MPa r1 depth <= static_pressure_MPa r2 depth).
Proof. exact (conj static_pos (conj static_mono (conj static_strict (conj static_additive static_density_mono)))). Qed.
Print Assumptions C15_static_pressure.

(* Built-in hydrostatic correlation 1/CP*(exp(x) - 1), x = rho*9.81*CP/1000*(depth - CT/2*grad*depth^2):
   for ANY function in the place of math.exp that is > 1 on positive arguments the pressure is positive as long as
   CT*grad*depth < 2 ... *)
Theorem C15_hydrostatic_positive :
  forall ex rho pw grad depth,
  (forall x, 0 < x -> 1 < ex x) ->
  0 < rho -> 0 < depth -> ct_of pw * grad * depth < 2 -> 0 < hydrostatic_kPa ex rho pw grad depth.
Proof.
  intros * Hex Hr Hd Hc. unfold hydrostatic_kPa.
  apply hydro_of_exp_pos, Hex, hydro_arg_pos; assumption.
Qed.
Print Assumptions C15_hydrostatic_positive.

(* ... and, for any non-decreasing [ex], non-decreasing in depth up to the vertex depth <= 1/(CT*grad) (PARTIAL:
   beyond it the exponent of the code's correlation decreases with depth, next theorem) *)
Theorem C15_hydrostatic_monotone_partial :
  forall ex rho pw grad d1 d2,
  (forall x y, x <= y -> ex x <= ex y) ->
  0 <= rho -> 0 <= d1 -> d1 <= d2 -> ct_of pw * grad * d2 <= 1 ->
  hydrostatic_kPa ex rho pw grad d1 <= hydrostatic_kPa ex rho pw grad d2.
Proof.
  intros * Hex Hr H1 H12 Hv. unfold hydrostatic_kPa.
  apply hydro_of_exp_mono, Hex, hydro_arg_mono; assumption.
Qed.
Print Assumptions C15_hydrostatic_monotone_partial.

Theorem C15_hydrostatic_monotone_refuted :
  exists rho ct grad d1 d2, 0 < rho /\ 0 < ct /\ 0 < grad /\ 0 < d1 /\ d1 < d2 /\
    hydro_arg rho ct grad d2 < hydro_arg rho ct grad d1.
Proof. exact hydro_arg_not_monotone. Qed.
Print Assumptions C15_hydrostatic_monotone_refuted.

(* never below the temperature-corrected linear column when ex x >= 1 + x (a fact about exp) *)
Theorem C15_hydrostatic_lower_bound :
  forall ex rho pw grad depth,
  (forall x, 1 + x <= ex x) ->
  rho * (981 # 100) / 1000 * (depth - ct_of pw / 2 * grad * (depth * depth)) <= hydrostatic_kPa ex rho pw grad depth.
Proof.
  intros * Hex. unfold hydrostatic_kPa.
  pose proof (Hex (hydro_arg rho (ct_of pw) grad depth)).
  pose proof (hydro_of_exp_lin (ex (hydro_arg rho (ct_of pw) grad depth))).
  pose proof (hydro_arg_column rho (ct_of pw) grad depth). lra.
Qed.
Print Assumptions C15_hydrostatic_lower_bound.

(* non-vacuity: the hypotheses are satisfiable and the models compute what the comments say *)
Example C15_example_prod :
  (exists l, prod_pressure 2 3 1000 150 40 = Vals l /\ length l = 6%nat /\ nth 0 l 0 == 1500 /\
             nth 1 l 0 == 10000 # 7 /\ nth 5 l 0 == 8000 # 7)
  /\ depletion_steps 40 3 = Some 7%Z /\ 40 <= 100 * natQ 3.
Proof.
  split. { eexists. split; [vm_compute; reflexivity|]. split; [|split; [|split]]; vm_compute; reflexivity. }
  split; [vm_compute; reflexivity|]. vm_compute. discriminate.
Qed.

Example C15_example_prod_floor :
  exists l, prod_pressure 3 1 1000 120 50 = Vals l /\ nth 0 l 0 == 1200 /\ nth 1 l 0 == 1100 /\ nth 2 l 0 == 1000.
Proof. eexists. split; [vm_compute; reflexivity|]. split; [|split]; vm_compute; reflexivity. Qed.

Example C15_example_inj :
  exists l, inj_pressure 1 4 9000 200 = Vals l /\ nth 3 l 0 == 9150.
Proof. eexists. split; [vm_compute; reflexivity|]. vm_compute. reflexivity. Qed.

Example C15_example_stage :
  inj_stage true true false 1 2 9000 200 (Vals [1; 1]) = inj_pressure 1 2 9000 200 /\ (true || false = true).
Proof. split; reflexivity. Qed.

Example C15_example_index :
  exists pp pi t,
    prod_power_series true 2 50 (8 # 10) [-500; 900] [900; 900] = Some pp /\
    inj_power_series 2 50 (2 # 100) (8 # 10) [700; -100] [980; 980] = Some pi /\
    total_power true pi pp = Some t /\ nth 0 pp 0 == 0 /\ nth 1 pi 0 == 0 /\ 0 < nth 0 t 0 /\ 0 < nth 1 t 0.
Proof.
  eexists; eexists; eexists. split; [vm_compute; reflexivity|]. split; [vm_compute; reflexivity|].
  split; [vm_compute; reflexivity|]. split; [|split; [|split]]; vm_compute; reflexivity.
Qed.

Example C15_example_impedance :
  imp_power_raw 2 50 (2 # 100) (8 # 10) (-300) 980 < 0 /\ imp_power 2 50 (2 # 100) (8 # 10) (-300) 980 = 0
  /\ 0 < imp_power 2 50 (2 # 100) (8 # 10) 3000 980.
Proof. split; [|split]; vm_compute; reflexivity. Qed.

Example C15_example_friction :
  dp_laminar 1 1000 (1 # 1000) (355 # 113) 3000 (7 # 10) < dp_laminar 1 1000 (1 # 1000) (355 # 113) 3000 (5 # 10)
  /\ growth_ok (2 # 10) (15 # 1000) (25 # 100) (16 # 1000) = true
  /\ well_f (fun _ _ => 2 # 100) 1 (1 # 1000) (355 # 113) (7 # 10) == 64 / reynolds 1 (1 # 1000) (355 # 113) (7 # 10).
Proof. split; [|split]; vm_compute; reflexivity. Qed.

Example C15_example_pump_pressure :
  dp_prod_index 1500 29000 55 (5 # 100) 900 3000 200 == dp_prod_index 1500 29000 55 (5 # 100) 900 3000 0 + 200
  /\ 0 < dp_prod_index 1500 29000 55 (5 # 100) 900 3000 200
  /\ (16 # 1000) * pow5 (2 # 10) <= (15 # 1000) * pow5 (25 # 100).
Proof. split; [vm_compute; reflexivity|]. split; [vm_compute; reflexivity|]. vm_compute. discriminate. Qed.

Example C15_example_hydrostatic :
  0 < static_pressure_MPa 1000 3000 /\ static_pressure_MPa 1000 3000 == 2941995 # 100000
  /\ 0 < hydro_arg 990 (ct_of (5 # 100)) (5 # 100) 3000 /\ ct_of (5 # 100) * (5 # 100) * 3000 <= 1
  /\ 0 < hydrostatic_kPa (fun x => 1 + x) 990 (5 # 100) (5 # 100) 3000.
Proof. split; [|split; [|split; [|split]]]; vm_compute; try reflexivity; discriminate. Qed.
