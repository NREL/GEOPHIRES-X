(* Props/C16.v - Price and incentive schedules have the documented shape.  The lemmas are in Proofs/PriceProofs.v
   (schedules) and Proofs/CostsProofs.v (tax credit, grants and fees on the cost side). *)
From Coq Require Import QArith Qminmax List ZArith Bool Lia.
From Verif Require Import Base.Flat Model.Price Model.Costs Proofs.PriceProofs Proofs.CostsProofs.
Import ListNotations.
Open Scope Q_scope.

(* The schedule of a product, for EVERY lifetime, escalation start (any integer), rate, start/end price
   (including start > end), PTC duration <= lifetime and inflation setting:
   year k is  min(start + max(0,k-esc)*rate , end)  +  PTC_k,
   PTC_k = ptc (x (1+infl)^k if inflation adjusted) for k < duration and 0 afterwards. *)
Theorem C16_schedule_shape :
  forall life prov dur ptc adj infl start endp esc rate r,
  product_schedule life prov dur ptc adj infl start endp esc rate = Some r ->
  length r = life /\
  forall k, (k < life)%nat ->
    nth k r 0 == Qmin (start + esc_term esc rate k) endp
                 + (if prov then ptc_term dur ptc adj infl k else 0).
Proof.
  intros life prov dur ptc adj infl start endp esc rate r. unfold product_schedule.
  destruct (if prov then _ else _) as [pl|] eqn:E; [|discriminate].
  intros H. apply pricing_fill_nth in H. destruct H as [Hl Hn]. split; [exact Hl|].
  intros k Hk. now rewrite (Hn k Hk), price_at_spec, (ptc_addition_nth _ _ _ _ _ _ _ E k Hk).
Qed.
Print Assumptions C16_schedule_shape.

(* the schedule exists when there is no PTC or its duration fits in the lifetime; otherwise the code raises IndexError,
   which is the next theorem *)
Theorem C16_schedule_defined :
  forall life prov dur ptc adj infl start endp esc rate,
  (prov = false \/ (dur <= life)%nat) ->
  exists r, product_schedule life prov dur ptc adj infl start endp esc rate = Some r.
Proof.
  intros life prov dur ptc adj infl start endp esc rate H. unfold product_schedule, ptc_model. destruct prov.
  - destruct H as [H|H]; [discriminate|]. destruct (Nat.ltb_spec life dur); [lia|].
    apply pricing_fill_defined_iff. rewrite ptc_fill_length. lia.
  - apply pricing_fill_defined_iff. rewrite repeat_length. lia.
Qed.
Print Assumptions C16_schedule_defined.

Theorem C16_duration_too_long_is_error :
  forall life dur ptc adj infl start endp esc rate,
  (life < dur)%nat -> product_schedule life true dur ptc adj infl start endp esc rate = None.
Proof.
  intros life dur ptc adj infl start endp esc rate H. unfold product_schedule.
  now rewrite (proj2 (ptc_model_error life dur ptc adj infl) H).
Qed.
Print Assumptions C16_duration_too_long_is_error.

(* before PTC, the price never exceeds the ending price *)
Theorem C16_cap : forall start endp esc rate i, price_at start endp esc rate i <= endp.
Proof. intros start endp esc rate i. rewrite price_at_spec. apply Q.le_min_r. Qed.
Print Assumptions C16_cap.

(* up to and including the escalation start year the price is the starting price (capped) *)
Theorem C16_start : forall start endp esc rate i,
  (Z.of_nat i <= esc)%Z -> price_at start endp esc rate i == Qmin start endp.
Proof.
  intros start endp esc rate i H. now rewrite price_at_spec, (esc_term_before esc rate i H), Qplus_0_r.
Qed.
Print Assumptions C16_start.

(* from the escalation start year on, the escalation term grows by exactly [rate] per year (it is the price less the
   starting price while the cap is not reached: PriceProofs.price_at_uncapped) *)
Theorem C16_linear : forall esc rate i,
  (esc <= Z.of_nat i)%Z -> esc_term esc rate (S i) == esc_term esc rate i + rate.
Proof. exact esc_term_step. Qed.
Print Assumptions C16_linear.

(* PTC window on the PTC schedule itself *)
Theorem C16_ptc_window : forall life dur ptc adj infl pl,
  ptc_model life dur ptc adj infl = Some pl ->
  (dur <= life)%nat /\ length pl = life /\
  forall k, (k < life)%nat -> nth k pl 0 == ptc_term dur ptc adj infl k.
Proof. exact ptc_model_nth. Qed.
Print Assumptions C16_ptc_window.

(* construction years: zero price, then the schedule unchanged *)
Theorem C16_construction_zero : forall cy l k,
  (k < cy)%nat -> nth k (pad_construction cy l) 0 == 0.
Proof.
  intros cy l k H. unfold pad_construction. rewrite app_nth1 by (rewrite repeat_length; exact H). now rewrite nth_repeat.
Qed.
Print Assumptions C16_construction_zero.

Theorem C16_construction_shift : forall cy l k,
  nth (cy + k) (pad_construction cy l) 0 = nth k l 0.
Proof.
  intros cy l k. unfold pad_construction. rewrite app_nth2 by (rewrite repeat_length; lia).
  rewrite repeat_length. f_equal. lia.
Qed.
Print Assumptions C16_construction_shift.

(* non-vacuity: a concrete schedule meeting the hypotheses (start > end would also do) *)
Example C16_example :
  exists r, product_schedule 5 true 2 (1#100) true (2#100) (5#100) (7#100) 1 (1#100) = Some r /\
            nth 4 r 0 == 7#100 /\ nth 1 r 0 == (5#100) + (1#100) * (102#100).
Proof. eexists. split. vm_compute. reflexivity. split; vm_compute; reflexivity. Qed.

(* investment tax credit, grants, incentives and fees change capital cost by exactly their stated amounts *)
Theorem C16_itc_grants : forall k : cost_in,
  (k_ritc_provided k = true -> ritc_value k == k_ritc k * ccap_pre k /\
                               ccap k == (1 - k_ritc k) * ccap_pre k + k_flat k - k_other k - k_grant k) /\
  (k_ritc_provided k = false -> ritc_value k == 0 /\ ccap k == ccap_pre k + k_flat k - k_other k - k_grant k).
Proof. exact itc_exact. Qed.
Print Assumptions C16_itc_grants.

(* annual fees and tax relief change annual O&M by exactly their stated amounts *)
Theorem C16_fees_tax_relief : forall k : cost_in,
  coam k == coam_pre k + redrill_amortised k + k_annual_fee k - k_taxrelief k.
Proof. intros k. reflexivity. Qed.
Print Assumptions C16_fees_tax_relief.
