(* Props/C17.v - Heat-in-place assessment (HIP-RA-X) adds up and scales with reservoir size.
   The statements; the arguments are the lemmas of Proofs/HipRaProofs.v, HipPartialProofs.v and HipReportProofs.v.
   [W : water] are the four CoolProp-backed water-property functions of (T degC, P MPa): every theorem holds for ALL of
   them; [i : hin] are the parameter values Calculate starts from; [hip_err W i = None] means the run raises nothing. *)
From Coq Require Import QArith Qabs Qminmax List ZArith Bool String Lia Lqa.
From Verif Require Import Base.Flat Proofs.FlatFacts Gen.HipTables Model.Fmt Proofs.FmtProofs Model.HipRa Model.HipReport
     Spec.HipRaSpec Proofs.HipRaProofs Proofs.HipReportProofs Proofs.HipPartialProofs.
Import ListNotations.
Open Scope Q_scope.

(* rock and recoverable-fluid volumes are the stated porosity fractions of the reservoir volume *)
Theorem C17_volumes : forall W i,
  let o := hip_out W i in
  o_volume o == i_area i * i_thick i /\
  o_vol_rock o == (1 - i_por i / 100) * o_volume o /\
  o_vol_fluid o == (i_por i / 100) * i_rff i * o_volume o /\
  (0 <= i_por i <= 100 -> 0 <= i_rff i <= 1 -> 0 <= o_volume o ->
   0 <= o_vol_rock o /\ 0 <= o_vol_fluid o /\ o_vol_rock o + o_vol_fluid o <= o_volume o).
Proof. exact volumes. Qed.
Print Assumptions C17_volumes.

(* stored heat is the sum of its rock and fluid parts (so is the specific enthalpy); closed form of both parts.
   Note the mass triple: total = rock + fluid volume x density, while the published fluid mass is overwritten
   with the produced mass stored/h_net (kept as the code does it). *)
Theorem C17_stored_sum : forall W i,
  let o := hip_out W i in
  o_stored o == o_stored_rock o + o_stored_fluid o /\
  o_enth_res o == o_enth_rock o + o_enth_fluid o /\
  o_mass_total o == o_mass_rock o + o_vol_fluid o * o_fdens o /\
  (hip_err W i = None ->
   o_stored_rock o == i_rrh i * (i_rhc i * (i_Tres i - i_Trej i) * o_vol_rock o) /\
   o_stored_fluid o == (w_h W (i_Tres i) (o_pres o) - w_h W (i_Trej i) (o_pres o)) * (o_vol_fluid o * o_fdens o)).
Proof.
  intros W i. cbv zeta. split; [reflexivity|]. split; [reflexivity|]. split; [reflexivity|].
  intros He. split; [exact (stored_rock_eq i (ne_mass_rock (err_none_facts W i He))) | reflexivity].
Qed.
Print Assumptions C17_stored_sum.

(* the heat cascade, for every in-range input whose reservoir is hotter than the rejection temperature and water
   properties with the thermodynamic signs (h and s increase with T at one pressure, exergy >= 0, density >= 0) *)
Theorem C17_cascade_partial : forall W i,
  in_range i -> i_Trej i < i_Tres i -> water_signs W i -> hip_err W i = None ->
  let o := hip_out W i in
  o_avail o <= o_stored o /\ o_prod o <= o_avail o /\ 0 <= o_prod o /\ 0 <= o_stored o.
Proof. exact cascade. Qed.
Print Assumptions C17_cascade_partial.

(* ... and the clause as stated in the property ("for all in-range temperature ... inputs") is FALSE of the faithful
   model: an in-range input with reservoir temperature below rejection temperature, water properties decreasing
   accordingly (CoolProp's values), a run without error, negative stored heat and positive available heat.
   Witness: Tres 60 C, Trej 100 C, the other inputs of tests/hip_ra_x_tests/examples/HIP-RA-X_example1.txt, water
   properties = CoolProp at 14.71 MPa to 6 digits.  stored = -1.17e15 kJ, available = +6.7e13 kJ. *)
Definition refuting_input : hin :=
  {| i_Tres := 60; i_Trej := 100; i_por := 10; i_area := 55; i_thick := 1#4; i_life := 25;
     i_rhc := 2840000000000#1; i_fhc := -1#1; i_fdens := -1#1; i_rdens := 2550000000000#1; i_rff := 1#2; i_rrh := 3#4;
     i_depth_given := false; i_depth := -1#1; i_pres_given := false; i_pres := -1#1;
     i_fdens_min := 100000000000#1; i_fhc_min := 3 |}.
Definition refuting_water : water :=
  water_of_data 60 (989481#1000) (415382#100) (263495#1000) (430170#1000) (823551#1000000) (1295994#1000000).

Theorem C17_cascade_refuted :
  exists W i, in_range i /\ hip_err W i = None /\ i_Tres i < i_Trej i /\
              w_h W (i_Tres i) (c_pres i) < w_h W (i_Trej i) (c_pres i) /\
              w_s W (i_Tres i) (c_pres i) < w_s W (i_Trej i) (c_pres i) /\
              0 <= c_exergy W i /\
              o_stored (hip_out W i) < 0 /\ 0 < o_avail (hip_out W i).
Proof.
  exists refuting_water, refuting_input.
  split; [vm_compute; reflexivity|]. split; [vm_compute; reflexivity|].
  repeat split; vm_compute; (reflexivity || discriminate).
Qed.
Print Assumptions C17_cascade_refuted.

(* producible = available x RecoverableHeat(T), a fraction for every temperature *)
Theorem C17_recoverable_range : forall T, (427#1000) <= recoverable_heat T <= (66#100).
Proof. exact recoverable_range. Qed.
Print Assumptions C17_recoverable_range.

(* UtilEff_func over the table regenerated from the source: a fraction wherever it is defined; and for ANY table
   with increasing knots the linear interpolation stays within the range of the tabulated values *)
Theorem C17_util_eff_range : forall t u, util_eff t = Some u -> 0 <= u <= 1.
Proof. exact util_eff_range. Qed.
Print Assumptions C17_util_eff_range.

Theorem C17_interpolation_within : forall lo hi tbl t u,
  table_ok lo hi tbl = true -> util_eff_on tbl t = Some u -> lo <= u <= hi.
Proof. exact util_eff_on_within. Qed.
Print Assumptions C17_interpolation_within.

(* electric energy over the life cycle (MW x 1000 kW/MW x seconds) never exceeds the available heat (kJ) *)
Theorem C17_electricity_bounded : forall W i,
  hip_err W i = None -> 0 <= o_avail (hip_out W i) -> 0 < i_life i ->
  0 <= o_elec (hip_out W i) /\ o_elec (hip_out W i) * 1000 * c_life_s i <= o_avail (hip_out W i).
Proof.
  intros W i He Hav Hlife. destruct (ne_util (err_none_facts W i He)) as [u Hu].
  assert (HL : 0 < c_life_s i) by (unfold c_life_s; lra).
  exact (elec_bounded W i u Hu Hav HL).
Qed.
Print Assumptions C17_electricity_bounded.

(* area: for EVERY input, water-property functions and factor k <> 0 the error status is unchanged and every
   extensive result is multiplied by k, per-area / per-volume / percentage / specific results unchanged *)
Theorem C17_area_homogeneous : forall W i k, ~ k == 0 ->
  let i' := with_area (k * i_area i) i in
  hip_err W i' = hip_err W i /\
  (hip_err W i = None -> scaled k false (hip_out W i) (hip_out W i')).
Proof.
  intros W i k Hk.
  refine (s_homogeneous W i (k * i_area i) (i_thick i) k Hk _ false _); [ring | reflexivity].
Qed.
Print Assumptions C17_area_homogeneous.

(* thickness: extensive and per-area results x k, per-volume / percentage / specific results unchanged *)
Theorem C17_thickness_homogeneous : forall W i k, ~ k == 0 ->
  let i' := with_thick (k * i_thick i) i in
  hip_err W i' = hip_err W i /\
  (hip_err W i = None -> scaled k true (hip_out W i) (hip_out W i')).
Proof.
  intros W i k Hk.
  refine (s_homogeneous W i (i_area i) (k * i_thick i) k Hk _ true _); ring.
Qed.
Print Assumptions C17_thickness_homogeneous.

(* units: for every row (parameter, unit, factor, offset) of the table regenerated from Units.py and the live pint
   registry, the quantity x (in the preferred unit) written in that unit, i.e. as the number v with x = f v + o, gives
   IDENTICAL results to x written in the preferred unit.  This is the model's exact reading: on the rows where pint
   cannot convert (compound units) the code raises, and it truncates a life cycle converted in floating point
   (known_findings.json). *)
Theorem C17_units_same_results : forall name unit f o,
  In (name, unit, f, o) hip_unit_table ->
  forall W i x,
    hip_calc_reading W name f o (write_value f o x) i = hip_calc_reading W name 1 0 x i /\
    exists r, hip_calc_reading W name 1 0 x i = Some r.
Proof.
  intros name unit f o Hin W i x.
  pose proof (proj1 (forallb_forall _ _) unit_table_ok _ Hin) as Hok. cbn [unit_row_ok] in Hok.
  apply andb_true_iff in Hok. destruct Hok as [Hf Hn]. apply negb_true_iff, Qeqb_false in Hf.
  apply reading_unit_invariant; [exact Hf | destruct (param_index name); discriminate].
Qed.
Print Assumptions C17_units_same_results.

(* the verdicts on implementation outputs are computed by these checkers; a passed check means the clause holds
   within the comparison tolerance (tol = 0: exactly) *)
Theorem C17_checkers_sound : forall tol por area thick rff o,
  (chk_volume tol area thick o = true -> within tol (nth 0 o 0) (area * thick)) /\
  (chk_vol_rock tol por o = true -> within tol (nth 1 o 0) (nth 0 o 0 * (1 - por / 100))) /\
  (chk_vol_fluid tol por rff o = true -> within tol (nth 2 o 0) (nth 0 o 0 * (por / 100) * rff)) /\
  (chk_stored_sum tol o = true -> within tol (nth 15 o 0) (nth 13 o 0 + nth 14 o 0)) /\
  (chk_avail_le_stored tol o = true ->
     nth 16 o 0 <= nth 15 o 0 + tol * Qmax3 1 (Qabs (nth 16 o 0)) (Qabs (nth 15 o 0))) /\
  (chk_prod_le_avail tol o = true ->
     nth 17 o 0 <= nth 16 o 0 + tol * Qmax3 1 (Qabs (nth 17 o 0)) (Qabs (nth 16 o 0))).
Proof.
  intros. repeat apply conj; [exact (close_within _ _ _) .. | exact (le_tol_sound _ _ _) | exact (le_tol_sound _ _ _)].
Qed.
Print Assumptions C17_checkers_sound.

Theorem C17_scaling_checker_sound : forall tol k mask base scaled',
  chk_scaled tol k mask base scaled' = true ->
  List.length base = List.length mask /\ List.length scaled' = List.length mask /\
  forall j, (j < List.length mask)%nat ->
    within tol (nth j scaled' 0) (if nth j mask false then k * nth j base 0 else nth j base 0).
Proof. exact chk_scaled_sound. Qed.
Print Assumptions C17_scaling_checker_sound.

(* The mass triple is NOT additive as published (excluded from the property); what does hold. *)
(* "Mass of Reservoir (fluid)" is overwritten with the produced mass stored/h_net, so rock + fluid exceeds the total
   that was computed before the overwrite: refuted on the shipped example (in range, Tres > Trej, no error) *)
Theorem C17_mass_additivity_refuted :
  exists W i, in_range i /\ hip_err W i = None /\ i_Trej i < i_Tres i /\
              let o := hip_out W i in
              o_mass_rock o + o_mass_fluid o > o_mass_total o /\
              ~ o_mass_total o == o_mass_rock o + o_mass_fluid o.
Proof.
  pose (W := mass_witness_water). pose (i := mass_witness_input). exists W, i.
  assert (He : hip_err W i = None) by (vm_compute; reflexivity).
  split; [vm_compute; reflexivity|]. split; [exact He|]. split; [vm_compute; reflexivity|].
  pose proof (err_none_facts W i He) as N.
  (* rock + fluid - total = rock heat / h_net, and both are positive here *)
  pose proof (mass_excess W i (ne_hnet N)) as E.
  assert (0 < c_stored_rock i / c_hnet W i).
  { apply Qlt_shift_div_l; [vm_compute; reflexivity|]. rewrite (stored_rock_eq i (ne_mass_rock N)). vm_compute. reflexivity. }
  cbv zeta. cbn [hip_out o_mass_total o_mass_rock o_mass_fluid]. split; [|intros T]; lra.
Qed.
Print Assumptions C17_mass_additivity_refuted.

(* the published triple adds up exactly when the rock part of the stored heat is zero *)
Theorem C17_mass_additivity_partial : forall W i, hip_err W i = None ->
  let o := hip_out W i in
  (o_mass_total o == o_mass_rock o + o_mass_fluid o <-> o_stored_rock o == 0).
Proof.
  intros W i He. exact (mass_additive_iff W i (ne_hnet (err_none_facts W i He))).
Qed.
Print Assumptions C17_mass_additivity_partial.

(* what the published fluid mass is (the total obeys total = rock + fluid volume x density: C17_stored_sum) *)
Theorem C17_mass_fluid_published : forall W i, hip_err W i = None ->
  let o := hip_out W i in
  o_mass_fluid o == o_vol_fluid o * o_fdens o + o_stored_rock o / c_hnet W i.
Proof. intros W i He. exact (mass_fluid_eq W i (ne_hnet (err_none_facts W i He))). Qed.
Print Assumptions C17_mass_fluid_published.

(* hip_ra_x.main() when Calculate raises: it logs, then prints the outputs as they stand. *)
(* [published W i]: the 25 figures main() goes on to print (assigned-so-far values, 0 for the rest); equal to the
   results when nothing is raised *)
Theorem C17_published_when_ok : forall W i, hip_err W i = None -> published W i = hout_list (hip_out W i).
Proof. intros W i H. apply err_site_none in H. unfold published. rewrite H. reflexivity. Qed.
Print Assumptions C17_published_when_ok.

(* the in-range inputs porosity 100, area 0 and temperature above 600 C do raise *)
Theorem C17_porosity_100_raises : forall W i,
  i_por i == 100 -> c_fhc_derived i = false \/ (0 <= i_Tres i <= 600) -> err_site_of W i = Some SiteMassRock.
Proof. intros W i H. apply raises_mass_rock. unfold c_mass_rock, c_vol_rock. rewrite H. field. Qed.
Print Assumptions C17_porosity_100_raises.

Theorem C17_area_0_raises : forall W i,
  i_area i == 0 -> c_fhc_derived i = false \/ (0 <= i_Tres i <= 600) -> err_site_of W i = Some SiteMassRock.
Proof. intros W i H. apply raises_mass_rock. unfold c_mass_rock, c_vol_rock, c_volume. rewrite H. ring. Qed.
Print Assumptions C17_area_0_raises.

Theorem C17_above_600_raises : forall W i, 600 < i_Tres i -> exists s, err_site_of W i = Some s.
Proof.
  intros W i HT. destruct (err_site_of W i) as [s|] eqn:E; [exists s; reflexivity|].
  apply err_site_none, err_none_facts in E. destruct (ne_util E) as [u Hu].
  rewrite (util_eff_above _ HT) in Hu. discriminate.
Qed.
Print Assumptions C17_above_600_raises.

(* ... and whatever is then printed still satisfies the volume and additivity clauses (for EVERY input and error site) *)
Theorem C17_partial_report_additive : forall W i,
  let p := published W i in
  nth 0 p 0 == i_area i * i_thick i /\
  nth 1 p 0 == (1 - i_por i / 100) * nth 0 p 0 /\
  nth 2 p 0 == (i_por i / 100) * i_rff i * nth 0 p 0 /\
  nth 15 p 0 == nth 13 p 0 + nth 14 p 0.
Proof.
  intros W i. cbv zeta. destruct (published_shape W i) as ((E0 & E1 & E2) & H). rewrite E0, E1, E2.
  destruct (volumes W i) as (V0 & V1 & V2 & _). split; [exact V0|]. split; [exact V1|]. split; [exact V2|].
  destruct H as [(-> & -> & -> & _) | [(_ & -> & -> & ->) | (_ & -> & -> & -> & _)]]; reflexivity.
Qed.
Print Assumptions C17_partial_report_additive.

(* ... and the cascade under the hypotheses of C17_cascade_partial: a partial report never shows producible >
   available > stored; it shows zeros without an error status, which no clause of C17 forbids.  (Of the first
   conjunct, the disjunct [hip_err W i = None] implies the second: a run without error has a non-zero rock mass.) *)
Theorem C17_partial_report_cascade : forall W i,
  in_range i -> i_Trej i < i_Tres i -> water_signs W i ->
  let p := published W i in
  (hip_err W i = None \/ ~ c_mass_rock i == 0 \/ nth 15 p 0 == 0) /\
  nth 16 p 0 <= nth 15 p 0 /\ nth 17 p 0 <= nth 16 p 0 /\ 0 <= nth 17 p 0.
Proof.
  intros W i Hr HT Hw. cbv zeta. destruct (published_shape W i) as (_ & [H | [[H _] | H]]).
  - destruct H as (_ & _ & -> & -> & ->). split; [right; right; reflexivity|]. repeat split; apply Qle_refl.
  - destruct Hw as [Hh _]. rewrite H in Hh. discriminate Hh.
  - destruct H as (Hm & _ & _ & -> & -> & ->). split; [right; left; exact Hm|].
    destruct (cascade_gen W i Hr HT Hw Hm) as (A & B & C & _). repeat split; assumption.
Qed.
Print Assumptions C17_partial_report_cascade.

(* every line the report writer produces for a value q, in either format, with any label without ':' / outer blanks
   and any unit without blanks, is parsed by the client (HipRaResult) as exactly that label, the printed value and
   that unit (None for an empty unit) *)
Theorem C17_report_line_parses : forall label unit k q,
  label_ok_b label = true -> no_space unit = true ->
  parse_line (hip_line label (render k (Fin q) unit)) = Some (label, printed k q, unit_opt unit).
Proof. exact hip_line_parses. Qed.
Print Assumptions C17_report_line_parses.

(* line k of SUMMARY OF RESULTS, with the labels and units regenerated from the current source: label, value of the
   result it is about in the stated format, unit - and the client returns exactly those.  [published] covers the
   normal report and the partial one. *)
Theorem C17_report_states_results : forall W i k idx kind,
  nth_error (result_rows (i_depth_given i) (i_pres_given i)) k = Some (idx, kind) ->
  exists line,
    nth_error (section_lines (result_rows (i_depth_given i) (i_pres_given i)) hip_out_names (map Fin (published W i))) k = Some line /\
    parse_line line = Some (fst (name_at hip_out_names idx), printed kind (nth idx (published W i) 0),
                            unit_opt (snd (name_at hip_out_names idx))).
Proof.
  intros W i k idx kind Hr. destruct (rows_in_range (i_depth_given i) (i_pres_given i)) as [R _].
  apply (section_line_states_value _ _ _ _ _ _ _ (proj1 names_ok) R Hr).
  change (Fin 0) with (Fin (0%Q)). apply (map_nth Fin).
Qed.
Print Assumptions C17_report_states_results.

Theorem C17_report_states_inputs : forall dg pg vals k idx kind q,
  nth_error (input_rows dg pg) k = Some (idx, kind) -> nth idx vals (Fin 0) = Fin q ->
  exists line, nth_error (section_lines (input_rows dg pg) hip_in_names vals) k = Some line /\
               parse_line line = Some (fst (name_at hip_in_names idx), printed kind q, unit_opt (snd (name_at hip_in_names idx))).
Proof.
  intros dg pg vals k idx kind q.
  exact (section_line_states_value _ _ _ _ _ _ _ (proj2 names_ok) (proj2 (rows_in_range dg pg))).
Qed.
Print Assumptions C17_report_states_inputs.

(* the printed value of a '10.2f' line is the quantity (x100 for the recovery factor) rounded to two decimals *)
Theorem C17_printed_fixed_is_rounded : forall q,
  Qabs (printed KFix q - q) <= (1#2) / inject_Z (pow10 2) /\
  Qabs (printed KPct q - 100 * q) <= (1#2) / inject_Z (pow10 2).
Proof. split; apply shown_within_half_ulp. Qed.
Print Assumptions C17_printed_fixed_is_rounded.

(* ... and the printed value of a '10.2e' line is the quantity rounded to three significant digits (half a unit of
   the third digit).  The premise [sig_ok q] (Fmt.ilog10 returns the decimal exponent of q) holds for every q <> 0
   (HipReportProofs.sig_ok_always) and is not needed. *)
Theorem C17_printed_sci_is_rounded : forall q, ~ q == 0 -> sig_ok q = true ->
  Qabs (printed KSci q - q) <= (1#2) * Qpow10 (ilog10 q - 2).
Proof. intros q Hq _. exact (sci_shown_close q 2 Hq). Qed.
Print Assumptions C17_printed_sci_is_rounded.

(* Legacy src/hip_ra/HIP_RA.py: the part of its method that is the same volumetric computation.  [legacy_common] is
   [volume; fluid mass of the whole pore volume; heat of the whole volume; specific exergy]. *)
Theorem C17_legacy_common_part : forall W i,
  let l := legacy_common W i in let o := hip_out W i in
  nth 0 l 0 = o_volume o /\ nth 3 l 0 = o_enth_fluid o /\
  (i_rff i == 1 -> nth 1 l 0 == o_vol_fluid o * i_fdens i) /\
  (hip_err W i = None -> i_por i == 0 -> i_rrh i == 1 -> nth 2 l 0 == o_stored_rock o).
Proof.
  intros W i. cbv zeta. split; [reflexivity|]. split; [reflexivity|]. split.
  - intros Hr. cbn [legacy_common nth hip_out o_vol_fluid]. unfold c_vol_fluid. rewrite Hr. ring.
  - intros He Hp Hrr. pose proof (ne_mass_rock (err_none_facts W i He)) as Hm.
    cbn [legacy_common nth hip_out o_stored_rock]. rewrite (stored_rock_eq i Hm), Hrr.
    assert (E : c_vol_rock i == c_volume i) by (unfold c_vol_rock; rewrite Hp; field). rewrite E. ring.
Qed.
Print Assumptions C17_legacy_common_part.

(* Non-vacuity: the hypotheses above are satisfiable, on the shipped example (250 C / 60 C). *)
Definition example_input : hin :=
  {| i_Tres := 250; i_Trej := 60; i_por := 10; i_area := 55; i_thick := 1#4; i_life := 25;
     i_rhc := 2840000000000#1; i_fhc := -1#1; i_fdens := -1#1; i_rdens := 2550000000000#1; i_rff := 1#2; i_rrh := 3#4;
     i_depth_given := false; i_depth := -1#1; i_pres_given := false; i_pres := -1#1;
     i_fdens_min := 100000000000#1; i_fhc_min := 3 |}.
Definition example_water : water :=
  water_of_data 250 (861884#1000) (433556#100) (1103134#1000) (315026#1000) (2659538#1000000) (792175#1000000).

Example C17_example_run_ok : hip_err example_water example_input = None /\ in_range example_input.
Proof. split; vm_compute; reflexivity. Qed.
Example C17_example_signs : water_signs example_water example_input /\ i_Trej example_input < i_Tres example_input.
Proof. unfold water_signs. repeat split; vm_compute; (reflexivity || discriminate). Qed.
Example C17_example_cascade :
  let o := hip_out example_water example_input in o_prod o < o_avail o /\ o_avail o < o_stored o /\ 0 < o_prod o.
Proof.
  destruct C17_example_run_ok as [He Hr]. destruct C17_example_signs as [Hw HT].
  apply (cascade_strict _ _ Hr HT Hw He); vm_compute; reflexivity.
Qed.
Example C17_example_scaling : ~ 2 == 0 /\ hip_err example_water (with_area (2 * 55) example_input) = None.
Proof. split; [discriminate | vm_compute; reflexivity]. Qed.
Example C17_example_unit_row : exists e, hd_error hip_unit_table = Some e /\ In e hip_unit_table.
Proof.
  destruct hip_unit_table as [|e l] eqn:E; [discriminate E|]. exists e. split; [reflexivity | left; reflexivity].
Qed.
Example C17_example_util : exists u, util_eff 250 = Some u /\ u == 2#5.
Proof. eexists. split; [vm_compute; reflexivity | reflexivity]. Qed.
Example C17_example_checker :
  chk_scaled 0 2 [true; false] [3; 5] [6; 5] = true /\ chk_scaled 0 2 [true; false] [3; 5] [6; 10] = false.
Proof. split; vm_compute; reflexivity. Qed.
Example C17_example_line :
  string_of_list_ascii (hip_line (chars "Stored Heat (rock)") (render KSci (Fin (3880000000000000#1)) (chars "kJ")))
    = "      Stored Heat (rock):        3.88e+15 kJ"%string /\
  exists v, parse_line (chars "      Stored Heat (rock):        3.88e+15 kJ") = Some (chars "Stored Heat (rock)", v, Some (chars "kJ")) /\
            v == 3880000000000000#1.
Proof. split; [vm_compute; reflexivity|]. eexists. split; vm_compute; reflexivity. Qed.
Example C17_example_row : nth_error (result_rows false false) 13 = Some (18%nat, KPct) /\ label_ok_b (chars "Recovery Factor (reservoir)") = true.
Proof. split; reflexivity. Qed.
Example C17_example_partial :
  err_site_of example_water (set_field 2 100 example_input) = Some SiteMassRock /\
  nth 0 (published example_water (set_field 2 100 example_input)) 0 == 55 # 4 /\
  nth 15 (published example_water (set_field 2 100 example_input)) 0 == 0.
Proof. repeat split; vm_compute; reflexivity. Qed.
Example C17_example_mass : hip_err mass_witness_water mass_witness_input = None /\ ~ o_stored_rock (hip_out mass_witness_water mass_witness_input) == 0.
Proof. split; [vm_compute; reflexivity | vm_compute; discriminate]. Qed.
Example C17_example_legacy :
  match run_legacy_common [250; 60; 10; 55; 1#4; 2840000000000#1; 861884000000#1; 1103; 315; 266#100; 79#100] with
  | Vals (v :: m :: _) => v == 55#4 /\ 0 < m
  | _ => False
  end.
Proof. vm_compute. split; reflexivity. Qed.
Example C17_example_sci : sig_ok (3880000000000000#1) = true /\ printed KSci (3884000000000000#1) == 3880000000000000#1.
Proof. split; vm_compute; reflexivity. Qed.
