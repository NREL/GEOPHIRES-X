(* Props/C18.v - Outputs respond monotonically where the model says they must.  The lemmas are in Proofs/MonoProofs.v. *)
From Coq Require Import QArith Qminmax List ZArith Bool Lqa.
From Verif Require Import Base.Flat Model.CashFlow Model.Lcoe Model.Costs Model.Gradient Model.Drawdown Model.Ramey
     Proofs.FlatFacts Proofs.CashFlowProofs Proofs.GradientProofs Proofs.LcoeProofs Proofs.MonoProofs Gen.WellCost.
Import ListNotations.
Open Scope Q_scope.

(* bottom-hole temperature does not decrease when the depth increases (any number of layers) *)
Theorem C18_bht_depth : forall Ts Tmax upper gb d1 d2, Gradient.wf upper gb -> Ts <= Tmax -> d1 <= d2 ->
  trock Ts Tmax upper gb d1 <= trock Ts Tmax upper gb d2.
Proof.
  intros Ts Tmax upper gb d1 d2 Hwf HT Hd. rewrite !trock_is_min by assumption.
  apply Q.min_le_compat_r. now apply Tprofile_mono.
Qed.
Print Assumptions C18_bht_depth.

(* ... nor when any gradient (as normalised by the reader, degC/m) increases, the layering being the same *)
Theorem C18_bht_gradient : forall Ts Tmax upper upper' gb gb' d,
  Gradient.wf upper gb -> Gradient.wf upper' gb' -> Ts <= Tmax -> 0 <= d -> grads_le upper upper' -> gb <= gb' ->
  trock Ts Tmax upper gb d <= trock Ts Tmax upper' gb' d.
Proof.
  intros Ts Tmax upper upper' gb gb' d Hwf Hwf' HT Hd Hg Hgb. rewrite !trock_is_min by assumption.
  apply Q.min_le_compat_r. apply Tprofile_mono_grad; try assumption; [apply Hwf | apply Qle_refl].
Qed.
Print Assumptions C18_bht_gradient.

(* the reader's magnitude heuristic (a gradient > 1 is taken as degC/km) breaks this for the INPUT value across 1.0 *)
Theorem C18_bht_input_gradient_refuted : exists g g' : Q, g <= g' /\ norm_gradient g' < norm_gradient g.
Proof. exists (9 # 10), (11 # 10). split; [discriminate | reflexivity]. Qed.
Print Assumptions C18_bht_input_gradient_refuted.

(* on either side of the heuristic the input gradient is monotone: both inputs above 1 (degC/km) or both at most 1 (degC/m) *)
Theorem C18_bht_input_gradient_partial : forall g g' : Q, g <= g' -> (1 < g \/ g' <= 1) -> norm_gradient g <= norm_gradient g'.
Proof.
  intros g g' Hle Hside. unfold norm_gradient. cbv zeta. apply floor_at_mono.
  assert (g / 1000 <= g' / 1000) by (apply Qmult_le_compat_r; [assumption | discriminate]).
  destruct (Qltb_spec 1 g), (Qltb_spec 1 g'); lra.
Qed.
Print Assumptions C18_bht_input_gradient_partial.

(* percentage-drawdown model: at every time the temperature does not increase when the drawdown rate increases *)
Theorem C18_tdp_rate : forall Trock Tinj dd dd' ts, Tinj <= Trock -> Forall (fun t => 0 <= t) ts -> dd <= dd' ->
  Forall2 Qle (tdp_series Trock Tinj dd' ts) (tdp_series Trock Tinj dd ts).
Proof. exact tdp_series_mono_rate. Qed.
Print Assumptions C18_tdp_rate.

(* Ramey: the initial production temperature does not decrease when the flow rate (hence the coefficient A) increases;
   E x = 1 - exp(-x) enters through its concavity in chord form, the Ramey time function through A > 0 *)
Theorem C18_ramey_flow : forall (E : Q -> Q) Trock g depth A1 A2,
  (forall x y, 0 < x -> x <= y -> x * E y <= y * E x) -> 0 <= g -> 0 < depth -> 0 < A1 -> A1 <= A2 ->
  produced_temperature Trock (drop0_E E g depth A1) <= produced_temperature Trock (drop0_E E g depth A2).
Proof.
  intros E Trock g depth A1 A2 Hc Hg Hd H1 H12. apply Qplus_le_r, Qopp_le_compat. now apply drop0_antitone.
Qed.
Print Assumptions C18_ramey_flow.

Theorem C18_ramey_A_flow : forall flow flow' cpw f pi krock, 0 < cpw -> 0 < f -> 0 < pi -> 0 < krock -> flow <= flow' ->
  ramey_A flow cpw f pi krock <= ramey_A flow' cpw f pi krock.
Proof.
  intros flow flow' cpw f pi krock Hc Hf Hp Hk Hfl. unfold ramey_A, Qdiv.
  repeat apply Qmult_le_compat_r; try apply Qinv_le_0_compat; try (apply Qlt_le_weak; assumption); trivial.
  discriminate.
Qed.
Print Assumptions C18_ramey_A_flow.

(* well cost: every correlation of the table regenerated from the current source is non-decreasing on 500..15000 m *)
Lemma table_mono_ok : forallb mono_ok well_cost_table = true.
Proof. vm_compute. reflexivity. Qed.
Theorem C18_wellcost : forall row d1 d2, In row well_cost_table -> 500 <= d1 -> d1 <= d2 -> d2 <= max_depth_m ->
  quad_cost (snd row) d1 <= quad_cost (snd row) d2.
Proof. exact (table_row_mono well_cost_table table_mono_ok). Qed.
Print Assumptions C18_wellcost.

Theorem C18_adjusted_wellcost : forall simple coef d1 d2 per_m adj, 0 <= adj -> 0 <= per_m ->
  (forall a b, 500 <= a -> a <= b -> b <= max_depth_m -> quad_cost coef a <= quad_cost coef b) ->
  500 <= d1 -> d1 <= d2 -> d2 <= max_depth_m ->
  one_vertical_well simple coef d1 per_m adj <= one_vertical_well simple coef d2 per_m adj.
Proof.
  intros simple coef d1 d2 per_m adj Hadj Hpm Hq H1 H12 H2. unfold one_vertical_well.
  destruct (Qltb_spec d1 500); [lra|]. destruct (Qltb_spec d2 500); [lra|]. rewrite !orb_false_r. destruct simple.
  - assert (per_m * d1 / 1000000 <= per_m * d2 / 1000000) by (apply Qmult_le_compat_r; [nra | discriminate]). nra.
  - pose proof (Hq d1 d2 H1 H12 H2). nra.
Qed.
Print Assumptions C18_adjusted_wellcost.

(* NPV does not increase when capital or O&M cost increase *)
Theorem C18_npv_cost : forall r c ccap ccap' coam coam', 0 < 1 + r -> (1 <= ci_cy c)%nat -> ccap <= ccap' -> coam <= coam' ->
  npv r (total_cashflow (with_costs c ccap' coam')) <= npv r (total_cashflow (with_costs c ccap coam)).
Proof.
  intros r c ccap ccap' coam coam' Hr _ Hc Ho. apply npv_mono; [assumption|]. now apply cashflow_antitone_in_costs.
Qed.
Print Assumptions C18_npv_cost.

(* no levelized cost decreases when a cost argument increases (positive energy denominators; BICYCLE under
   non-negativity of its capital coefficient, which a large tax-credit rate can violate) *)
Theorem C18_lcoe_cost : forall c cap cap' om om' xs xs' a_std a_std' a_bic a_bic' avgE energy unit,
  lev_mono_conditions c avgE energy unit ->
  cap <= cap' -> om <= om' -> xs <= xs' -> Forall2 Qle a_std a_std' -> Forall2 Qle a_bic a_bic' ->
  lev spec_levelizers c cap om xs a_std a_bic avgE energy unit <= lev spec_levelizers c cap' om' xs' a_std' a_bic' avgE energy unit.
Proof.
  intros c cap cap' om om' xs xs' a_std a_std' a_bic a_bic' avgE energy unit (Hu & H1 & H2 & H3) Hc Ho Hx Hs Hb.
  destruct (Z.eq_dec (l_econ c) 1) as [E1|E1]; [|destruct (Z.eq_dec (l_econ c) 2) as [E2|E2]].
  - rewrite !lev_fcr by assumption. destruct (H1 E1) as [Hf Hav].
    apply ratio_mono; try assumption. now apply fcr_num_mono.
  - rewrite !lev_std by assumption. destruct (H2 E2) as (Hi & Hq & Hden).
    apply ratio_mono; try assumption. now apply std_num_spec_mono.
  - rewrite !lev_bic by assumption. destruct (H3 E1 E2) as (Hg & Hk & Hq & Hden).
    apply ratio_mono; try assumption. now apply bic_num_spec_mono.
Qed.
Print Assumptions C18_lcoe_cost.

(* capital cost is monotone in the sum of its components when the credit rate is at most 100 % *)
Theorem C18_ccap_components : forall k k', k_total_valid k = false -> k_total_valid k' = false ->
  k_ritc_provided k' = k_ritc_provided k -> k_ritc k' == k_ritc k -> k_ritc k <= 1 ->
  k_flat k' == k_flat k -> k_other k' == k_other k -> k_grant k' == k_grant k ->
  components_sum k <= components_sum k' -> ccap k <= ccap k'.
Proof.
  intros k k' Hv Hv' Hp Hr Hr1 Hf Ho Hg Hs. unfold ccap, ritc_value, ccap_pre. rewrite Hv, Hv', Hp.
  pose proof (ccap_mono_in_pre k _ _ Hr1 Hs) as H. destruct (k_ritc_provided k); [rewrite Hr|]; lra.
Qed.
Print Assumptions C18_ccap_components.

(* layers that meet Gradient.wf with their bottom-hole temperature, and a row of the table *)
Example ex_layers : Gradient.wf [(5 # 100, 1000)] (3 # 100) /\ trock 15 400 [(5 # 100, 1000)] (3 # 100) 3000 == 125.
Proof. split; [split; [reflexivity | repeat constructor] | vm_compute; reflexivity]. Qed.
Example ex_row : exists row, In row well_cost_table /\ 0 < quad_cost (snd row) 3000.
Proof. exists (nth 0 well_cost_table (0%Z, false, (0, 0, 0))). split; [left; reflexivity | vm_compute; reflexivity]. Qed.
