(* Props/C19.v - The published parameter schema matches what the simulator accepts.
   The statements, each derived in a few lines from Proofs/SchemaProofs.v.
   The tables (Gen/ParamTable: every Parameter of every module class, discovered by scanning the packages;
   Gen/SchemaTables: the schema generated now, the committed JSON files, the client's field list) are regenerated
   from the tree under test on every run.  The theorems are the soundness of the executable comparisons for ANY
   tables - the check evaluates the comparisons on the regenerated tables inside Coq - plus the link
   "schema-allowed <-> reader-accepted" for every value, which rests on the reader model of C07. *)
From Coq Require Import QArith ZArith List String Bool.
From Verif Require Import Base.Flat Base.ParamRec Model.RangeReader Proofs.RangeReaderProofs Model.Schema Proofs.SchemaProofs.
Import ListNotations.
Open Scope Q_scope.

(* names: none missing, none extra *)
Theorem C19_names :
  forall t sch, names_ok t sch = true -> forall n, In n (pnames t) <-> In n (snames sch).
Proof. intros t sch H. apply same_strings_sound. rewrite <- names_ok_same. exact H. Qed.
Print Assumptions C19_names.

(* fields of every consistently declared parameter *)
Theorem C19_fields :
  forall t sch, fields_ok t sch = true ->
  forall s p, In s sch -> find_name (s_name s) t = Some p -> consistent t p = true -> fields_match p s = true.
Proof. exact (entry_ok_sound fields_match). Qed.
Print Assumptions C19_fields.

(* "consistently declared": every class that accepts the name declares the same kind, default, bounds, unit, type *)
Theorem C19_consistent :
  forall t p q, consistent t p = true -> In q t -> p_name q = p_name p -> same_decl p q = true.
Proof.
  intros t p q H Hq Hn. unfold consistent in H. rewrite forallb_forall in H. specialize (H q Hq).
  rewrite Hn, String.eqb_refl in H. exact H.
Qed.
Print Assumptions C19_consistent.

(* what fields_match says: type and unit equal; bounds equal to Min/Max resp. min/max of the AllowableRange *)
Theorem C19_fields_meaning :
  forall p s, fields_match p s = true ->
  s_type s = p_jtype p /\ s_units s = p_units p /\
  (p_kind p = KFloat -> exists a b, s_min s = Some a /\ a == p_min p /\ s_max s = Some b /\ b == p_max p) /\
  (p_kind p = KInt -> oQ_eqb (s_min s) (option_map inject_Z (runs_min (p_range p))) = true /\
                      oQ_eqb (s_max s) (option_map inject_Z (runs_max (p_range p))) = true /\
                      oQ_eqb (s_default s) (p_default p) = true).
Proof.
  intros p s H. destruct (fields_match_parts _ _ H) as (Ht & Hu & Hmin & Hmax & Hd & _).
  destruct (type_bounds_meaning p s Ht Hmin Hmax) as [T B].
  split; [exact T|]. split; [apply String.eqb_eq, Hu|]. split; [exact B|].
  intros Hk. unfold f_min, f_max, f_default, lo_bound, hi_bound in Hmin, Hmax, Hd.
  rewrite Hk in Hmin, Hmax, Hd. exact (conj Hmin (conj Hmax Hd)).
Qed.
Print Assumptions C19_fields_meaning.

(* enforcement, floats: for EVERY value, allowed by the schema entry <-> inside the domain the reader enforces ... *)
Theorem C19_enforced_float :
  forall p s, p_kind p = KFloat -> fields_match p s = true -> forall v, schema_allows s v = in_domain p v.
Proof.
  intros p s Hk H v. destruct (fields_match_parts _ _ H) as (Ht & _ & Hmin & Hmax & _).
  exact (float_enforced p s v Hk Ht Hmin Hmax).
Qed.
Print Assumptions C19_enforced_float.

(* ... hence accepted and used resp. rejected by name by the reader (C07 model), the sentinel aside *)
Theorem C19_enforced_float_reader :
  forall p s v, p_kind p = KFloat -> fields_match p s = true -> is_sentinel p v = false ->
  (schema_allows s v = true -> final_is p (read_param p v) v) /\
  (schema_allows s v = false -> read_param p v = Reject (p_name p)).
Proof.
  intros p s v Hk H Hs. rewrite (C19_enforced_float p s Hk H v), (float_domain p v Hk).
  destruct (float_verdict p v Hk) as [R A]. auto.
Qed.
Print Assumptions C19_enforced_float_reader.

(* enforcement, ints/options: whatever the reader's domain contains is schema-allowed ... *)
Theorem C19_enforced_int_sound :
  forall p s v, p_kind p = KInt -> fields_match p s = true -> in_domain p v = true -> schema_allows s v = true.
Proof. intros p s v Hk H. apply (int_enforced p s v Hk H). Qed.
Print Assumptions C19_enforced_int_sound.

(* ... and exactly that when the option list is published or the AllowableRange is a single interval
   (PARTIAL: a gapped AllowableRange without published options is only described by its min and max) *)
Theorem C19_enforced_int_exact_partial :
  forall p s, p_kind p = KInt -> fields_match p s = true -> runs_wf (p_range p) = true -> int_exact p s = true ->
  forall v, schema_allows s v = in_domain p v.
Proof. intros p s Hk H _ Hx v. apply (int_enforced p s v Hk H), Hx. Qed.
Print Assumptions C19_enforced_int_exact_partial.

(* enforcement, array parameters read through ReadParameter (Gradients, Thicknesses): for EVERY first element and
   whatever follows it, allowed by the schema entry <-> the reader stores the supplied list (otherwise it warns and
   keeps the current list) ... *)
Theorem C19_enforced_list :
  forall p s, p_kind p = KList -> fields_match p s = true ->
  forall v rest, lstored (read_list p v rest) = schema_allows_elem s v.
Proof.
  intros p s Hk H v rest. rewrite (list_enforced p s v rest Hk H). destruct (schema_allows_elem s v); reflexivity.
Qed.
Print Assumptions C19_enforced_list.

Theorem C19_enforced_list_stored :
  forall p s v rest, p_kind p = KList -> fields_match p s = true ->
  (schema_allows_elem s v = true -> read_list p v rest = LStore (v :: rest)) /\
  (schema_allows_elem s v = false -> read_list p v rest = LKeep).
Proof. intros p s v rest Hk H. rewrite (list_enforced p s v rest Hk H). split; intros ->; reflexivity. Qed.
Print Assumptions C19_enforced_list_stored.

(* ... but only the first element is ever checked: an out-of-bounds later element is stored (refuted clause) *)
Theorem C19_list_rest_refuted :
  exists p s v w, p_kind p = KList /\ f_min p s = true /\ f_max p s = true /\ schema_allows_elem s v = true /\
                  schema_allows_elem s w = false /\ read_list p v [w] = LStore [v; w].
Proof. exists w_gradients, w_gradients_entry, (50#1), (9999#1). repeat apply conj; vm_compute; reflexivity. Qed.
Print Assumptions C19_list_rest_refuted.

(* the generated parameter reference (.rst): every row of a consistently declared parameter shows the type, the
   preferred unit, the default and the Min / Max the simulator enforces (names: C19_names applies to the rows too) *)
Theorem C19_rst_fields :
  forall t sch, rst_ok t sch = true ->
  forall s p, In s sch -> find_name (s_name s) t = Some p -> consistent t p = true -> rst_match p s = true.
Proof. exact (entry_ok_sound rst_match). Qed.
Print Assumptions C19_rst_fields.

Theorem C19_rst_meaning :
  forall p s, rst_match p s = true ->
  s_type s = p_jtype p /\ s_units s = p_pref p /\
  (p_kind p = KFloat -> exists a b, s_min s = Some a /\ a == p_min p /\ s_max s = Some b /\ b == p_max p).
Proof.
  intros p s H. destruct (rst_match_parts _ _ H) as (Ht & Hu & Hmin & Hmax & _).
  destruct (type_bounds_meaning p s Ht Hmin Hmax) as [T B]. split; [exact T|]. split; [apply String.eqb_eq, Hu | exact B].
Qed.
Print Assumptions C19_rst_meaning.

Theorem C19_rst_enforced_float :
  forall p s, p_kind p = KFloat -> rst_match p s = true -> forall v, schema_allows s v = in_domain p v.
Proof.
  intros p s Hk H v. destruct (rst_match_parts _ _ H) as (Ht & _ & Hmin & Hmax & _).
  exact (float_enforced p s v Hk Ht Hmin Hmax).
Qed.
Print Assumptions C19_rst_enforced_float.

(* committed files = generated schema (entry by entry: name and content hash; both inclusions) *)
Theorem C19_committed :
  forall a b, same_entries a b = true ->
  (forall e, In e a -> exists e', In e' b /\ s_name e' = s_name e /\ s_digest e' = s_digest e) /\
  (forall e, In e b -> exists e', In e' a /\ s_name e' = s_name e /\ s_digest e' = s_digest e).
Proof.
  intros a b H. apply andb_true_iff in H. rewrite !forallb_forall in H. destruct H as [A B].
  split; intros e He; apply entry_in_In; auto.
Qed.
Print Assumptions C19_committed.

Theorem C19_committed_result :
  forall a b, same_rfields a b = true -> forall x, In x a <-> In x b.
Proof. exact (same_members rfield_in rfield_in_In). Qed.
Print Assumptions C19_committed_result.

(* every field of the result schema is a field the client extracts *)
Theorem C19_result_fields :
  forall client sch, result_fields_ok client sch = true -> forall c n d, In (c, n, d) sch -> In (c, n) client.
Proof.
  intros client sch H c n d Hin. unfold result_fields_ok in H. rewrite forallb_forall in H.
  apply pair_in_In. exact (H _ Hin).
Qed.
Print Assumptions C19_result_fields.

(* ... and on a real report: every schema field whose label the report prints is extracted with a value (the check
   evaluates report_ok on the labels printed by / values extracted from reports of real runs) *)
Theorem C19_report_fields :
  forall sch printed extracted, report_ok sch printed extracted = true ->
  forall c n d, In (c, n, d) sch -> In (c, n) printed -> In (c, n) extracted.
Proof.
  intros sch printed extracted H c n d Hs Hp. unfold report_ok in H. rewrite forallb_forall in H. specialize (H _ Hs).
  cbn in H. apply pair_in_In in Hp. rewrite Hp in H. apply pair_in_In. exact H.
Qed.
Print Assumptions C19_report_fields.

(* string parameters: every text is allowed by a schema entry of type string and is held verbatim by the reader *)
Theorem C19_string_enforced :
  forall p e, p_kind p = KStr -> f_type p e = true -> String.eqb (p_jtype p) "string" = true ->
  forall s, schema_allows_string e s = true /\ read_string p s = Some s.
Proof.
  intros p e Hk Ht Hj s. unfold schema_allows_string, read_string. rewrite Hk, (proj1 (published_type p e Ht)). auto.
Qed.
Print Assumptions C19_string_enforced.

(* the pinned tree refutes the names clause: 30 accepted input names are not published; none is extra *)
Theorem C19_names_refuted :
  (exists n, In n pinned_accepted_names /\ ~ In n pinned_schema_names) /\
  List.length (filter (fun n => negb (mem_str n pinned_schema_names)) pinned_accepted_names) = 30%nat /\
  forallb (fun n => mem_str n pinned_accepted_names) pinned_schema_names = true.
Proof.
  assert (L : List.length (filter (fun n => negb (mem_str n pinned_schema_names)) pinned_accepted_names) = 30%nat)
    by (vm_compute; reflexivity).
  split; [|split; [exact L | vm_compute; reflexivity]].
  destruct (filter_witness _ _ _ L) as [n [Hn Hf]]. exists n. split; [exact Hn|].
  intros Hin. apply mem_str_In in Hin. rewrite Hin in Hf. discriminate.
Qed.
Print Assumptions C19_names_refuted.

(* ... and the bounds clause for 'Maximum Drawdown' (reader Max 1.000001, schema "1.0"): 1.0000005 is accepted *)
Theorem C19_bound_refuted :
  exists p s v, s_name s = p_name p /\ f_max p s = false /\ schema_allows s v = false /\ read_param p v = Accept v.
Proof. exists w_maxdrawdown, w_maxdrawdown_entry, (10000005 # 10000000). repeat apply conj; vm_compute; reflexivity. Qed.
Print Assumptions C19_bound_refuted.

(* realistic rows on which the comparisons hold and the hypotheses are met *)
Definition ex_depth : param :=
  mkParam "Reservoir" "Reservoir Depth" KFloat (Some (3#1)) (Some (3#1)) (1#10) (15#1) [] "kilometer" "kilometer"
          "LENGTH" true "number" "3/1".
Definition ex_depth_entry : sentry :=
  mkS "Reservoir Depth" "number" "kilometer" "Reservoir" (Some (3#1)) "3/1" (Some (1#10)) (Some (15#1)) [] "d".
Definition ex_enduse : param :=
  mkParam "SurfacePlant" "End-Use Option" KInt (Some (1#1)) (Some (1#1)) 0 0 [(1,2)%Z; (31,32)%Z; (41,42)%Z; (51,52)%Z]
          "" "" "NONE" false "integer" "1/1".
Definition ex_enduse_entry : sentry :=
  mkS "End-Use Option" "integer" "" "Surface Plant" (Some (1#1)) "1/1" (Some (1#1)) (Some (52#1))
      [1; 2; 31; 32; 41; 42; 51; 52]%Z "d".

Example C19_example :
  names_ok [ex_depth; ex_enduse] [ex_depth_entry; ex_enduse_entry] = true /\
  fields_ok [ex_depth; ex_enduse] [ex_depth_entry; ex_enduse_entry] = true /\
  consistent [ex_depth; ex_enduse] ex_depth = true /\
  fields_match ex_depth ex_depth_entry = true /\ fields_match ex_enduse ex_enduse_entry = true /\
  int_exact ex_enduse ex_enduse_entry = true /\
  schema_allows ex_depth_entry (15#1) = true /\ schema_allows ex_depth_entry (1501#100) = false /\
  schema_allows ex_enduse_entry (3#1) = false /\ schema_allows ex_enduse_entry (31#1) = true /\
  same_entries [ex_depth_entry] [ex_depth_entry] = true /\
  result_fields_ok [("SUMMARY OF RESULTS", "LCOE")]%string [("SUMMARY OF RESULTS", "LCOE", "d")]%string = true /\
  names_ok [ex_depth; ex_enduse] [ex_depth_entry] = false /\
  report_ok [("S", "LCOE", "d"); ("S", "LCOH", "d")]%string [("S", "LCOE")]%string [("S", "LCOE")]%string = true /\
  report_ok [("S", "LCOE", "d")]%string [("S", "LCOE")]%string [] = false /\
  rst_match ex_depth ex_depth_entry = true /\ rst_ok [ex_depth; ex_enduse] [ex_depth_entry] = true /\
  fields_match w_gradients w_gradients_entry = true /\ read_list w_gradients (500#1) [0] = LStore [500#1; 0] /\
  read_list w_gradients (5001#10) [0] = LKeep.
Proof. repeat apply conj; vm_compute; reflexivity. Qed.
