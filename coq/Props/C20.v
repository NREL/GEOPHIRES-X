(* Props/C20.v - All entry points give the same answer.
   The statements, each with the last step of its proof; the lemmas about paths are in Proofs/CliPathsProofs.v.  The model (Model/CliPaths.v) is the path handling of
   geophires_x/__main__.py, GEOPHIRESv3.main (after fix 4b78654), Model.__init__, GeophiresXClient and the part of
   pathlib.PurePosixPath they use; the simulation itself is an arbitrary function [run]. *)
From Coq Require Import String Ascii List Bool ZArith.
From Verif Require Import Model.Tokenizer Model.CliPaths Proofs.CliPathsProofs.
Import ListNotations.
Open Scope string_scope.

(* python -m geophires_x <inp> <out> started in ANY directory cwd, with the package installed ANYWHERE (pkg, the
   directory GEOPHIRESv3.main chdir()s into): the report goes to Path(out).absolute() taken in the starting directory
   and the JSON next to it - the chdir does not leak into the output location *)
Theorem C20_cli_requested_path : forall cwd pkg inp out : string,
  wf_abs (parse cwd) = true ->
  main_files cwd pkg (cli_argv cwd inp (Some out)) =
  {| f_report := absolute cwd out; f_json := json_path (absolute cwd out) |}.
Proof. exact cli_files. Qed.
Print Assumptions C20_cli_requested_path.

(* a relative output path from cwd and its absolute form from any other directory / installation name the same files *)
Theorem C20_relative_absolute : forall cwd cwd' pkg pkg' inp inp' out : string,
  wf_abs (parse cwd) = true -> wf_abs (parse cwd') = true ->
  main_files cwd pkg (cli_argv cwd inp (Some out)) = main_files cwd' pkg' (cli_argv cwd' inp' (Some (absolute cwd out))).
Proof. intros cwd cwd' pkg pkg' inp inp' out H H'. rewrite !cli_files by assumption. now rewrite absolute_absolute. Qed.
Print Assumptions C20_relative_absolute.

(* no output argument: HDR.out and HDR.json in the starting directory *)
Theorem C20_default : forall cwd pkg inp : string,
  wf_abs (parse cwd) = true ->
  main_files cwd pkg (cli_argv cwd inp None) =
  {| f_report := to_str {| p_root := p_root (parse cwd); p_parts := (p_parts (parse cwd) ++ ["HDR.out"])%list |};
     f_json := Some (to_str {| p_root := p_root (parse cwd); p_parts := (p_parts (parse cwd) ++ ["HDR.json"])%list |}) |}.
Proof.
  intros cwd pkg inp H. unfold cli_argv. rewrite main_files_absolute_out, json_path_abs by now apply join_wf.
  change (join (parse cwd) (parse "HDR.out")) with {| p_root := p_root (parse cwd); p_parts := (p_parts (parse cwd) ++ ["HDR.out"])%list |}.
  unfold with_name, name, parent_parts. cbn [p_parts p_root]. now rewrite last_last, removelast_last.
Qed.
Print Assumptions C20_default.

(* the JSON file of EVERY absolute normalised report path lies in the report's directory and is called stem.json
   (code after fix 4b78654: Path.with_name) *)
Theorem C20_json_path : forall p : path,
  wf_abs p = true -> p_parts p <> [] ->
  exists j, json_path (to_str p) = Some (to_str j) /\ wf_abs j = true /\
            p_root j = p_root p /\ p_parts j = (removelast (p_parts p) ++ [(stem (last (p_parts p) "") ++ ".json")%string])%list.
Proof.
  intros p H Hne. rewrite json_path_abs by assumption. unfold with_name.
  pose proof (name_wf p H Hne) as Hn. destruct (is_empty (name p)) eqn:E.
  - destruct (name p); [discriminate Hn | discriminate E].
  - eexists. split; [reflexivity|]. split; [|split; reflexivity].
    apply (with_name_json_wf p); [exact H|]. unfold with_name. now rewrite E.
Qed.
Print Assumptions C20_json_path.

(* the code before the fix (str.replace over the whole path string) does not: a directory carrying the file's name is
   rewritten too.  Witness a.out/a.out (corpus/C20): a regression of the fix is reported with this replay. *)
Theorem C20_json_path_pinned_refuted :
  exists out, json_path out = Some "a.out/a.json" /\ json_path_pinned out = "a.json/a.json" /\ out = "a.out/a.out".
Proof. exists "a.out/a.out". repeat split; vm_compute; reflexivity. Qed.
Print Assumptions C20_json_path_pinned_refuted.

(* the client looks for the JSON where main() wrote it (with_suffix vs with_name(stem + '.json')), for every path *)
Theorem C20_client_json_agrees : forall out : string, client_json_path out = json_path out.
Proof. intros out. unfold client_json_path, json_path. now rewrite with_suffix_is_json_name. Qed.
Print Assumptions C20_client_json_agrees.

(* command line, client (from any directory) and direct pipeline, for ANY simulation function (success, exception or
   bare sys.exit()), any input and any absolute normalised output path: same status (0 / non-zero resp. returns /
   raises), same files, same report (command line after fix 3ff4cc0) *)
Theorem C20_entry_points_agree :
  forall (run : string -> sim) cwd1 cwd2 cwd3 pkg1 pkg2 pkg3 inp1 inp2 inp3 (p : path) (text : string),
  wf_abs (parse cwd1) = true -> wf_abs p = true ->
  cli run cwd1 pkg1 inp1 (Some (to_str p)) text true = client run cwd2 pkg2 inp2 (to_str p) text
  /\ client run cwd2 pkg2 inp2 (to_str p) text = direct run cwd3 pkg3 [""; inp3; to_str p] text true.
Proof.
  intros run cwd1 cwd2 cwd3 pkg1 pkg2 pkg3 inp1 inp2 inp3 p text H W. unfold cli, client, direct, client_argv.
  rewrite cli_files by assumption. rewrite !main_files_absolute_out by assumption. rewrite absolute_fixed by assumption.
  split; reflexivity.
Qed.
Print Assumptions C20_entry_points_agree.

(* the command line before the fix (cli_pinned) reported success (status 0) where the client raises.  Witness input
   'Reservoir Model, 5' without a reservoir output file (tools/props/C20.py SPECIAL, corpus/C20): a regression of the
   fix is reported with that replay. *)
Theorem C20_entry_points_agree_pinned_refuted :
  exists (run : string -> sim) (text : string), run text = SimAbort /\
    o_exit (cli_pinned run "/w" "/pkg" "in.txt" (Some "/w/o.out") text true) = 0%Z /\
    o_exit (client run "/w" "/pkg" "/w/in.txt" "/w/o.out" text) = 1%Z.
Proof. exists (fun _ => SimAbort), "Reservoir Model, 5". repeat split. Qed.
Print Assumptions C20_entry_points_agree_pinned_refuted.

(* exit status: ANY failure of the simulation (exception or bare sys.exit()) gives a non-zero status and no report;
   success gives status 0 and the report text of [run] at the files named above; a missing output directory gives
   non-zero and no report *)
Theorem C20_exit :
  forall (run : string -> sim) (cwd pkg inp : string) (out : option string) (text : string) (dir_ok : bool),
  ((forall rep, run text <> SimOk rep) -> o_exit (cli run cwd pkg inp out text dir_ok) <> 0%Z
                         /\ o_files (cli run cwd pkg inp out text dir_ok) = None
                         /\ o_report (cli run cwd pkg inp out text dir_ok) = None)
  /\ (forall rep, run text = SimOk rep -> dir_ok = true ->
        o_exit (cli run cwd pkg inp out text dir_ok) = 0%Z
        /\ o_files (cli run cwd pkg inp out text dir_ok) = Some (main_files cwd pkg (cli_argv cwd inp out))
        /\ o_report (cli run cwd pkg inp out text dir_ok) = Some rep)
  /\ (dir_ok = false -> o_exit (cli run cwd pkg inp out text dir_ok) <> 0%Z
                        /\ o_files (cli run cwd pkg inp out text dir_ok) = None).
Proof.
  intros run cwd pkg inp out text dir_ok. unfold cli, finish. split; [|split].
  - intros H. destruct (run text) as [rep| |]; [exfalso; now apply (H rep) | |]; repeat split; cbn; discriminate.
  - intros rep H D. rewrite H, D. repeat split.
  - intros D. rewrite D. destruct (run text); split; cbn; try discriminate; reflexivity.
Qed.
Print Assumptions C20_exit.

(* the command line before the fix: status 0 and no report for failures signalled with a bare sys.exit() *)
Theorem C20_exit_pinned_refuted :
  exists (run : string -> sim) (text : string), run text = SimAbort /\
    forall cwd pkg inp out dir_ok,
      o_exit (cli_pinned run cwd pkg inp out text dir_ok) = 0%Z /\ o_files (cli_pinned run cwd pkg inp out text dir_ok) = None.
Proof. exists (fun _ => SimAbort), "Reservoir Model, 5". split; [reflexivity|]. intros. split; reflexivity. Qed.
Print Assumptions C20_exit_pinned_refuted.

Example C20_example_paths :
  wf_abs (parse "/var/tmp/w//d1/./") = true
  /\ main_files "/var/tmp/w/d1" "/repo/src/geophires_x" (cli_argv "/var/tmp/w/d1" "in.txt" (Some "sub/../a.out/a.out"))
     = {| f_report := "/var/tmp/w/d1/sub/../a.out/a.out"; f_json := Some "/var/tmp/w/d1/sub/../a.out/a.json" |}
  /\ fs_canon "/var/tmp/w/d1/sub/../a.out/a.json" = "/var/tmp/w/d1/a.out/a.json".
Proof. vm_compute. repeat split. Qed.

Example C20_example_default :
  main_files "/w" "/pkg" (cli_argv "/w" "in.txt" None) = {| f_report := "/w/HDR.out"; f_json := Some "/w/HDR.json" |}.
Proof. vm_compute. reflexivity. Qed.

Example C20_example_names :
  map json_name ["a.out"; "noext"; ".hidden"; "a.b.c"; "trail."] = ["a.json"; "noext.json"; ".hidden.json"; "a.b.json"; "trail..json"]
  /\ wf_abs {| p_root := "/"; p_parts := ["tmp"; "geophires-result_1.out"] |} = true.
Proof. vm_compute. split; reflexivity. Qed.

Example C20_example_entry_points :
  let run := fun t : string => if String.eqb t "bad" then SimFail else SimOk ("report of " ++ t) in
  o_exit (cli run "/w" "/pkg" "i" (Some "o.out") "ok" true) = 0%Z
  /\ o_report (cli run "/w" "/pkg" "i" (Some "o.out") "ok" true) = Some "report of ok"
  /\ o_exit (cli run "/w" "/pkg" "i" (Some "o.out") "bad" true) = 1%Z
  /\ o_exit (cli run "/w" "/pkg" "i" (Some "nodir/o.out") "ok" false) = 1%Z
  /\ o_exit (cli (fun _ => SimAbort) "/w" "/pkg" "i" (Some "o.out") "x" true) = 1%Z.
Proof. vm_compute. repeat split. Qed.

(* GEOPHIRESv3.main() called directly (sys.argv = [a; inp; rel] or [a; inp]) with a RELATIVE or MISSING output argument:
   the files do not depend on the caller's directory at all; the report is resolved against the PACKAGE directory main()
   chdir()s into (a relative name lands there, the default HDR.out too) while the default JSON goes to the caller's
   directory.  Tied by tools/props/C20.py on real runs with the chdir target substituted by a scratch directory. *)
Theorem C20_direct_pipeline_paths : forall cwd cwd' pkg a inp rel : string,
  wf_abs (parse pkg) = true -> wf_abs (parse cwd) = true -> is_abs (parse rel) = false ->
  main_files cwd pkg [a; inp; rel] = main_files cwd' pkg [a; inp; rel]
  /\ parse (f_report (main_files cwd pkg [a; inp; rel]))
     = {| p_root := p_root (parse pkg); p_parts := (p_parts (parse pkg) ++ p_parts (parse rel))%list |}
  /\ parse (f_report (main_files cwd pkg [a; inp]))
     = {| p_root := p_root (parse pkg); p_parts := (p_parts (parse pkg) ++ ["HDR.out"])%list |}
  /\ option_map parse (f_json (main_files cwd pkg [a; inp]))
     = Some {| p_root := p_root (parse cwd); p_parts := (p_parts (parse cwd) ++ ["HDR.json"])%list |}.
Proof.
  intros cwd cwd' pkg a inp rel Wp Wc R. split; [reflexivity|]. unfold main_files. cbn [nth_error f_report f_json option_map].
  repeat split.
  - rewrite parse_absolute by assumption. unfold join. now rewrite R.
  - now rewrite parse_absolute.
  - f_equal. apply parse_to_str. exact (join_wf cwd "HDR.json" Wc).
Qed.
Print Assumptions C20_direct_pipeline_paths.

Example C20_example_direct_relative :
  main_files "/w" "/pkg" [""; "/w/in.txt"; "rel.out"] = {| f_report := "/pkg/rel.out"; f_json := Some "/pkg/rel.json" |}
  /\ main_files "/w" "/pkg" [""; "/w/in.txt"] = {| f_report := "/pkg/HDR.out"; f_json := Some "/w/HDR.json" |}
  /\ is_abs (parse "rel.out") = false /\ wf_abs (parse "/pkg") = true.
Proof. vm_compute. repeat split; reflexivity. Qed.

(* HIP-RA-X: python -m hip_ra_x.hip_ra_x, HipRaXClient, and the Monte-Carlo driver's call of that client *)

(* with ABSOLUTE normalised input and output paths the script (from any directory, package installed anywhere) and the
   client read the same input file, give the same outcome and write the report to exactly the requested path *)
Theorem C20_hip_entry_points_agree :
  forall (hrun : string -> hsim) (cwd cwd' pkg pkg' : string) (pin pout : path),
  wf_abs pin = true -> wf_abs pout = true ->
  hip_script hrun cwd pkg (to_str pin) (Some (to_str pout)) true = hip_client hrun cwd' pkg' (to_str pin) (to_str pout) true
  /\ (forall rep, hrun (fs_canon (to_str pin)) = HOk rep ->
        hip_script hrun cwd pkg (to_str pin) (Some (to_str pout)) true
        = {| ho_raises := false; ho_report_at := Some (to_str pout); ho_text := Some rep |}).
Proof.
  intros hrun cwd cwd' pkg pkg' pin pout Wi Wo. unfold hip_script, hip_client, hip_client_of, hip_main.
  rewrite (absolute_fixed cwd' pin Wi), !hip_files_absolute by assumption. cbn [h_input h_report].
  split; [destruct (hrun (fs_canon (to_str pin))); reflexivity|]. intros rep ->. reflexivity.
Qed.
Print Assumptions C20_hip_entry_points_agree.

(* where the script's arguments lead in general: nothing depends on the starting directory; input, output and the
   default HIP.out are all resolved against the PACKAGE directory main() chdir()s into before it reads sys.argv[1] *)
Theorem C20_hip_script_paths :
  forall (cwd cwd' pkg inp : string) (out : option string) (dir_ok : bool) (hrun : string -> hsim),
  wf_abs (parse pkg) = true ->
  hip_script hrun cwd pkg inp out dir_ok = hip_script hrun cwd' pkg inp out dir_ok
  /\ parse (h_input (hip_files pkg [""; inp])) = join (parse pkg) (parse inp)
  /\ parse (h_report (hip_files pkg [""; inp])) = {| p_root := p_root (parse pkg); p_parts := (p_parts (parse pkg) ++ ["HIP.out"])%list |}
  /\ (forall o, parse (h_report (hip_files pkg [""; inp; o])) = join (parse pkg) (parse o)).
Proof.
  intros cwd cwd' pkg inp out dir_ok hrun W. split; [reflexivity|]. unfold hip_files. cbn [nth nth_error h_input h_report].
  repeat split; intros; now rewrite parse_absolute.
Qed.
Print Assumptions C20_hip_script_paths.

(* so the clause "writes the report to the requested relative path" (C20_cli_requested_path for GEOPHIRES) is REFUTED
   for the HIP-RA-X command line: a relative input is looked for, and a relative output written, in the package
   directory.  FINDING, reproduced by tools/props/C20.py (key hip-ra-x-cli:relative-path-resolved-against-package-dir). *)
Theorem C20_hip_requested_path_refuted :
  exists cwd pkg inp out, wf_abs (parse cwd) = true /\ wf_abs (parse pkg) = true /\ is_abs (parse inp) = false /\
    h_input (hip_files pkg [""; inp; out]) <> absolute cwd inp /\ h_report (hip_files pkg [""; inp; out]) <> absolute cwd out
    /\ h_input (hip_files pkg [""; inp; out]) = "/pkg/in.txt".
Proof. exists "/w", "/pkg", "in.txt", "out.txt". repeat split; vm_compute; congruence. Qed.
Print Assumptions C20_hip_requested_path_refuted.

(* exit status of the script: a failure while the parameters are read gives a non-zero status and no report; success
   with an existing output directory gives status 0 and the report at the resolved path ... *)
Theorem C20_hip_exit_partial :
  forall (hrun : string -> hsim) (cwd pkg inp : string) (out : option string) (dir_ok : bool),
  (hrun (fs_canon (h_input (hip_files pkg ("" :: inp :: match out with Some o => [o] | None => [] end)))) = HFail ->
     hip_status (hip_script hrun cwd pkg inp out dir_ok) <> 0%Z /\ ho_report_at (hip_script hrun cwd pkg inp out dir_ok) = None)
  /\ (forall rep, hrun (fs_canon (h_input (hip_files pkg ("" :: inp :: match out with Some o => [o] | None => [] end)))) = HOk rep ->
        dir_ok = true ->
        hip_status (hip_script hrun cwd pkg inp out dir_ok) = 0%Z
        /\ ho_report_at (hip_script hrun cwd pkg inp out dir_ok)
           = Some (h_report (hip_files pkg ("" :: inp :: match out with Some o => [o] | None => [] end)))
        /\ ho_text (hip_script hrun cwd pkg inp out dir_ok) = Some rep).
Proof.
  intros hrun cwd pkg inp out dir_ok. unfold hip_script, hip_main, hip_status. split.
  - intros ->. split; cbn; [discriminate | reflexivity].
  - intros rep -> ->. repeat split.
Qed.
Print Assumptions C20_hip_exit_partial.

(* ... but when the report cannot be written (main() swallows every exception of Calculate and PrintOutputs) the
   script exits with status 0 and no report, where the client raises.  FINDING (key hip-ra-x-cli:exit-0-report-not-written). *)
Theorem C20_hip_exit_refuted :
  exists (hrun : string -> hsim), forall cwd pkg inp out,
    hip_status (hip_script hrun cwd pkg inp out false) = 0%Z /\ ho_report_at (hip_script hrun cwd pkg inp out false) = None
    /\ ho_raises (hip_client hrun cwd pkg inp "/tmp/r.out" false) = true.
Proof. exists (fun _ => HOk "report"). intros. repeat split. Qed.
Print Assumptions C20_hip_exit_refuted.

(* the same relative input path from the same directory names the same file for the command line and for
   GeophiresXClient: both hand main() the path made absolute in the caller's directory, so the chdir into the package
   cannot redirect it (code after fix fa4a753) *)
Theorem C20_input_file_agrees : forall cwd pkg pkg' inp : string, forall (out : option string) (out' : string),
  wf_abs (parse cwd) = true ->
  input_file pkg (cli_argv cwd inp out) = absolute cwd inp /\ input_file pkg' (client_argv cwd inp out') = absolute cwd inp.
Proof. intros cwd pkg pkg' inp out out' W. unfold input_file, cli_argv, client_argv. cbn [nth]. now rewrite !absolute_absolute. Qed.
Print Assumptions C20_input_file_agrees.

(* before the fix the client passed the path on as given and main() opened it relative to the package directory *)
Theorem C20_input_file_pinned_refuted :
  exists cwd pkg inp out, wf_abs (parse cwd) = true /\ wf_abs (parse pkg) = true /\
    input_file pkg (client_argv_pinned inp out) <> absolute cwd inp /\ input_file pkg (client_argv_pinned inp out) = "/pkg/in.txt".
Proof. exists "/w", "/pkg", "in.txt", "/tmp/o.out". repeat split; vm_compute; congruence. Qed.
Print Assumptions C20_input_file_pinned_refuted.

(* HipRaXClient with a relative input path built in cwd reads cwd/inp - the same run as with the absolute path, from
   anywhere, whatever the package directory ... *)
Theorem C20_hip_client_relative_input :
  forall (hrun : string -> hsim) (cwd cwd' pkg pkg' inp : string) (pout : path),
  wf_abs (parse cwd) = true -> wf_abs pout = true ->
  hip_client hrun cwd pkg inp (to_str pout) true = hip_client hrun cwd' pkg' (absolute cwd inp) (to_str pout) true
  /\ h_input (hip_files pkg [""; absolute cwd inp; to_str pout]) = absolute cwd inp.
Proof.
  intros hrun cwd cwd' pkg pkg' inp pout W Wo. unfold hip_client. rewrite (absolute_absolute cwd' cwd inp W).
  change (absolute cwd inp) with (to_str (join (parse cwd) (parse inp))).
  unfold hip_client_of, hip_main. rewrite !hip_files_absolute by (assumption || now apply join_wf). split; reflexivity.
Qed.
Print Assumptions C20_hip_client_relative_input.

(* ... which the client before the fix did not (it looked in the package directory and raised) *)
Theorem C20_hip_client_pinned_refuted :
  exists (hrun : string -> hsim) cwd pkg inp out,
    ho_raises (hip_client hrun cwd pkg inp out true) = false /\ ho_raises (hip_client_pinned hrun pkg inp out true) = true.
Proof. exists (fun p => if String.eqb p "/w/in.txt" then HOk "r" else HFail), "/w", "/pkg", "in.txt", "/tmp/o.out". split; reflexivity. Qed.
Print Assumptions C20_hip_client_pinned_refuted.

Example C20_example_input_file :
  input_file "/pkg" (client_argv "/w/d1" "../in.txt" "/tmp/o.out") = "/w/d1/../in.txt" /\ wf_abs (parse "/w/d1") = true
  /\ fs_canon "/w/d1/../in.txt" = "/w/in.txt".
Proof. vm_compute. repeat split; reflexivity. Qed.

Example C20_example_hip :
  hip_files "/repo/src/hip_ra_x" [""; "/w/in.txt"; "/w/o.out"] = {| h_input := "/w/in.txt"; h_report := "/w/o.out" |}
  /\ hip_files "/pkg" [""; "in.txt"] = {| h_input := "/pkg/in.txt"; h_report := "/pkg/HIP.out" |}
  /\ wf_abs (parse "/w/in.txt") = true
  /\ hip_status (hip_script (fun p => if String.eqb p "/w/in.txt" then HOk "r" else HFail) "/w" "/pkg" "in.txt" (Some "/w/o.out") true) = 1%Z.
Proof. vm_compute. repeat split; reflexivity. Qed.

(* Model(input_file=A) reads A whatever the hosting process has in sys.argv; sys.argv[1] is only the fall-back *)
Theorem C20_keyword_input_wins : forall (a : string) (argv : list string),
  model_input_source (Some a) argv = Some a /\ model_input_source None argv = nth_error argv 1.
Proof. split; reflexivity. Qed.
Print Assumptions C20_keyword_input_wins.

(* for EVERY history of client calls in one process (successes, exceptions, bare sys.exit() in any order) the working
   directory after each call is the one before it, and each call gives exactly what it gives when made alone - so the
   agreement of the entry points (C20_entry_points_agree, C20_input_file_agrees) survives any history *)
Theorem C20_client_history : forall (run : string -> sim) (pkg cwd : string) (qs : list creq),
  history (client_step run) pkg cwd qs
  = map (fun q => (cwd, client run cwd pkg (q_inp q) (q_out q) (q_text q))) qs.
Proof. intros run pkg cwd qs. induction qs as [|q r IH]; [reflexivity|]. cbn [history map client_step fst]. now rewrite IH. Qed.
Print Assumptions C20_client_history.

(* a client that restores the directory only after a successful main() does not: after one failing call the process
   sits in the package directory and the next relative input path names another file *)
Theorem C20_client_history_leaky_refuted :
  exists (run : string -> sim) pkg cwd q1 q2,
    map fst (history (client_step_leaky run) pkg cwd [q1; q2]) = [pkg; pkg] /\ pkg <> cwd
    /\ input_file pkg (client_argv pkg (q_inp q2) (q_out q2)) <> input_file pkg (client_argv cwd (q_inp q2) (q_out q2)).
Proof.
  exists sim_of_text, "/pkg", "/w", {| q_inp := "bad.txt"; q_out := "/tmp/a.out"; q_text := "fail" |},
         {| q_inp := "in.txt"; q_out := "/tmp/b.out"; q_text := "ok" |}.
  repeat split; vm_compute; congruence.
Qed.
Print Assumptions C20_client_history_leaky_refuted.

Example C20_example_history :
  map fst (history (client_step sim_of_text) "/pkg" "/w"
             [{| q_inp := "a"; q_out := "/o"; q_text := "fail" |}; {| q_inp := "b"; q_out := "/o"; q_text := "abort" |};
              {| q_inp := "c"; q_out := "/o"; q_text := "ok" |}]) = ["/w"; "/w"; "/w"]
  /\ model_input_source (Some "/w/A.txt") [""; "/w/B.txt"; "/w/o.out"] = Some "/w/A.txt".
Proof. vm_compute. split; reflexivity. Qed.

(* the report is written truncate-then-write: after ANY history of successful runs (any entry point, any order, any
   paths) the file at P holds exactly one report - that of the last run that targeted P; paths nobody wrote stay absent *)
Theorem C20_report_file_is_last_run : forall (runs : list (string * N)) (p : string),
  fs_lookup p (after_runs false runs) = option_map (fun id => [id]) (last_run_to p runs).
Proof. intros runs p. unfold after_runs. rewrite after_runs_from. now destruct (last_run_to p runs). Qed.
Print Assumptions C20_report_file_is_last_run.

(* in append mode a second run onto an existing path leaves the old report followed by the new one *)
Theorem C20_report_file_append_refuted :
  exists runs p, last_run_to p runs = Some 2%N /\ fs_lookup p (after_runs true runs) = Some [1%N; 2%N]
                 /\ fs_lookup p (after_runs false runs) = Some [2%N].
Proof. exists [("/w/result.out", 1%N); ("/w/result.out", 2%N)], "/w/result.out". repeat split. Qed.
Print Assumptions C20_report_file_append_refuted.

Example C20_example_report_file :
  report_file_check [("/w/a.out", 1%N); ("/w/b.out", 7%N); ("/w/a.out", 3%N)] "/w/a.out" [3%N] = true
  /\ last_run_to "/w/a.out" [("/w/a.out", 1%N); ("/w/b.out", 7%N); ("/w/a.out", 3%N)] = Some 3%N.
Proof. vm_compute. split; reflexivity. Qed.
